(* C16 -- token and URI functions are exact, case-sensitive and round-trip.
   This file contains the property theorems, each closed by [exact] of a lemma proved in
   proofs/ with its assumptions printed, and three examples. *)
From MH Require Import proofs.Tokens_proofs.

(* Method / Version parsing accept exactly the canonical spellings -- for ALL byte strings *)
Theorem C16_method_exact : forall bs m, parse_method bs = Some m <-> bs = raw_method m.
Proof. exact parse_method_iff. Qed.
Theorem C16_method_reject : forall bs, parse_method bs = None <-> forall m, bs <> raw_method m.
Proof. exact parse_method_none. Qed.
Theorem C16_version_exact : forall bs v, parse_version bs = Some v <-> bs = raw_version v.
Proof. exact parse_version_iff. Qed.
Theorem C16_version_reject : forall bs, parse_version bs = None <-> forall v, bs <> raw_version v.
Proof. exact parse_version_none. Qed.
(* media types: the canonical spellings modulo surrounding white space *)
Theorem C16_media_exact : forall bs t,
  parse_media bs = Some t <-> bs <> [] /\ utf8_valid bs = true /\ trim bs = media_str t.
Proof. exact parse_media_iff. Qed.
(* parsing the canonical byte form of any value returns that value *)
Theorem C16_method_roundtrip : forall m, parse_method (raw_method m) = Some m.
Proof. exact parse_method_raw. Qed.
Theorem C16_version_roundtrip : forall v, parse_version (raw_version v) = Some v.
Proof. exact parse_version_raw. Qed.
Theorem C16_media_roundtrip : forall t, parse_media (media_str t) = Some t.
Proof. exact parse_media_canonical. Qed.
(* every status code serialises to its own distinct three-digit number (finite: 11 constructors) *)
Theorem C16_status_distinct : forall a b, raw_status a = raw_status b -> a = b.
Proof. exact raw_status_injective. Qed.
Theorem C16_status_three_digits : forall s,
  length (raw_status s) = 3%nat /\ forallb is_digit (raw_status s) = true.
Proof. exact raw_status_three_digits. Qed.
(* the absolute path of a URI *)
Theorem C16_abs_path_origin_form : forall r, abs_path (SLASH :: r) = SLASH :: r.
Proof. exact abs_path_origin_form. Qed.
Theorem C16_abs_path_absolute_form : forall a p,
  ~ In SLASH a -> abs_path (HTTP_SCHEME_PREFIX ++ a ++ SLASH :: p) = SLASH :: p.
Proof. exact abs_path_absolute_form. Qed.
Theorem C16_abs_path_no_path : forall a, ~ In SLASH a -> abs_path (HTTP_SCHEME_PREFIX ++ a) = [].
Proof. exact abs_path_no_authority_slash. Qed.
Theorem C16_abs_path_otherwise : forall u,
  prefixb HTTP_SCHEME_PREFIX u = false -> (forall r, u <> SLASH :: r) -> abs_path u = [].
Proof. exact abs_path_other. Qed.
Theorem C16_uri_classes_exhaustive : forall u,
  (exists r, u = SLASH :: r)
  \/ (exists a p, u = HTTP_SCHEME_PREFIX ++ a ++ SLASH :: p /\ ~ In SLASH a)
  \/ (exists a, u = HTTP_SCHEME_PREFIX ++ a /\ ~ In SLASH a)
  \/ (prefixb HTTP_SCHEME_PREFIX u = false /\ forall r, u <> SLASH :: r).
Proof. exact uri_classes. Qed.
Theorem C16_abs_path_suffix : forall u,
  abs_path u = [] \/ exists pre r, u = pre ++ abs_path u /\ abs_path u = SLASH :: r.
Proof. exact abs_path_suffix. Qed.
Theorem C16_abs_path_idempotent : forall u, abs_path (abs_path u) = abs_path u.
Proof. exact abs_path_idempotent. Qed.

(* non-vacuity: concrete inputs meeting the hypotheses *)
Example C16_ex_absolute : abs_path (B"http://localhost:80/a/b") = B"/a/b".
Proof. vm_compute. reflexivity. Qed.
Example C16_ex_case_sensitive : parse_method (B"get") = None /\ parse_version (B"http/1.1") = None.
Proof. vm_compute. auto. Qed.
Example C16_ex_media_padded : parse_media (B" text/plain ") = Some PlainText.
Proof. vm_compute. reflexivity. Qed.

Print Assumptions C16_method_exact.
Print Assumptions C16_method_reject.
Print Assumptions C16_version_exact.
Print Assumptions C16_version_reject.
Print Assumptions C16_media_exact.
Print Assumptions C16_method_roundtrip.
Print Assumptions C16_version_roundtrip.
Print Assumptions C16_media_roundtrip.
Print Assumptions C16_status_distinct.
Print Assumptions C16_status_three_digits.
Print Assumptions C16_abs_path_origin_form.
Print Assumptions C16_abs_path_absolute_form.
Print Assumptions C16_abs_path_no_path.
Print Assumptions C16_abs_path_otherwise.
Print Assumptions C16_uri_classes_exhaustive.
Print Assumptions C16_abs_path_suffix.
Print Assumptions C16_abs_path_idempotent.
