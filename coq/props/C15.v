(* C15 -- header rules: case-insensitive names, trimmed values, tolerant vs fatal faults. *)
From MH Require Import proofs.Headers_proofs proofs.Trim_proofs proofs.Padding_proofs.

(* names are matched case-insensitively: any two names equal up to ASCII letter case are
   classified identically (UTF-8 validity is invariant under ASCII lower-casing); the seven
   recognised names are recognised *)
Theorem C15_name_case_insensitive : forall k1 k2, ascii_lower k1 = ascii_lower k2 -> header_try_from k1 = header_try_from k2.
Proof. exact name_case_insensitive. Qed.
Theorem C15_recognised_names : forall x, header_try_from (raw_header x) = Some x.
Proof. exact recognised_names. Qed.
(* ... and white space around the name is ignored: the class depends only on trim (lower name) *)
Check ((fun bs => eq_refl) : forall bs, header_try_from bs =
  if utf8_valid bs then
    let k := trim (ascii_lower bs) in
    if beq k (B"content-length") then Some HContentLength else if beq k (B"content-type") then Some HContentType
    else if beq k (B"expect") then Some HExpect else if beq k (B"transfer-encoding") then Some HTransferEncoding
    else if beq k (B"server") then Some HServer else if beq k (B"accept") then Some HAccept
    else if beq k (B"accept-encoding") then Some HAcceptEncoding else None
  else None).

Theorem C15_invalid_utf8_fatal : forall h line,
  utf8_valid line = false -> parse_header_line h line = Err (HeaderError (InvalidUtf8String line)).
Proof. exact invalid_utf8_fatal. Qed.
Theorem C15_no_colon_fatal : forall h line, utf8_valid line = true ->
  (~ In COLON line <-> parse_header_line h line = Err (HeaderError (InvalidFormat line))).
Proof. exact no_colon_fatal. Qed.
Theorem C15_content_length : forall h k v, utf8_valid (k ++ COLON :: v) = true -> ~ In COLON k ->
  header_try_from k = Some HContentLength ->
  parse_header_line h (k ++ COLON :: v) =
    match parse_u32 (trim v) with
    | Some n => Ok (set_content_length h n)
    | None => Err (HeaderError (InvalidValue k v))
    end.
Proof. exact content_length_rule. Qed.
(* "unsigned 32-bit decimal" is Rust's u32::from_str: optional '+', at least one digit, < 2^32 *)
Theorem C15_u32 : forall s n,
  parse_u32 s = Some n <->
  exists ds, (s = ds \/ s = 43 :: ds) /\ ds <> [] /\ hd 0 ds <> 43 /\ digits_value 0 ds = Some n /\ n < U32_LIMIT
             \/ (s = 43 :: ds /\ ds <> [] /\ digits_value 0 ds = Some n /\ n < U32_LIMIT).
Proof. exact parse_u32_rule. Qed.
Theorem C15_accept_encoding : forall v, v <> [] -> utf8_valid v = true ->
  encoding_try_from v =
  match first_bad v (split_on COMMA v) with
  | Some p => Err (HeaderError (InvalidValue (B"Accept-Encoding") p))
  | None => Ok tt
  end.
Proof. exact accept_encoding_rule. Qed.
Check ((fun whole p r => eq_refl) : forall whole p r, first_bad whole (p :: r) =
    if beq (trim p) (B"identity;q=0") || (beq (trim p) (B"*;q=0") && negb (containsb (B"identity") whole))
    then Some p else first_bad whole r).
Theorem C15_accept_encoding_empty : encoding_try_from [] = Err InvalidRequest.
Proof. exact accept_encoding_empty. Qed.

(* ---- tolerated faults: an unsupported value of Content-Type, Accept, Transfer-Encoding or
   Expect does not reject the request and leaves the headers unchanged ---- *)
Theorem C15_unsupported_value_ignored : forall h k v x,
  utf8_valid (k ++ COLON :: v) = true -> ~ In COLON k -> header_try_from k = Some x -> tolerated_header x = true ->
  (exists h', parse_header_line h (k ++ COLON :: v) = Ok h') \/
  (parse_header_line h (k ++ COLON :: v) = Err (HeaderError (UnsupportedValue k v)) /\
   parse_header_tolerant h (k ++ COLON :: v) = Ok h).
Proof. exact unsupported_value_ignored. Qed.

(* ---- what each recognised line does (values are trimmed) ---- *)
Theorem C15_expect : forall h k v, utf8_valid (k ++ COLON :: v) = true -> ~ In COLON k ->
  header_try_from k = Some HExpect ->
  parse_header_tolerant h (k ++ COLON :: v) = Ok (if beq (trim v) (B"100-continue") then set_expect h else h).
Proof. exact expect_rule. Qed.
Theorem C15_transfer_encoding : forall h k v, utf8_valid (k ++ COLON :: v) = true -> ~ In COLON k ->
  header_try_from k = Some HTransferEncoding ->
  parse_header_tolerant h (k ++ COLON :: v) = Ok (if beq (trim v) (B"chunked") then set_chunked h else h).
Proof. exact transfer_encoding_rule. Qed.
Theorem C15_accept : forall h k v, utf8_valid (k ++ COLON :: v) = true -> ~ In COLON k ->
  header_try_from k = Some HAccept ->
  parse_header_tolerant h (k ++ COLON :: v) = Ok (match parse_media (trim v) with Some t => set_accept h t | None => h end).
Proof. exact accept_rule. Qed.
Theorem C15_content_type : forall h k v, utf8_valid (k ++ COLON :: v) = true -> ~ In COLON k ->
  header_try_from k = Some HContentType -> parse_header_tolerant h (k ++ COLON :: v) = Ok h.
Proof. exact content_type_rule. Qed.
Theorem C15_server : forall h k v, utf8_valid (k ++ COLON :: v) = true -> ~ In COLON k ->
  header_try_from k = Some HServer -> parse_header_tolerant h (k ++ COLON :: v) = Ok h.
Proof. exact server_rule. Qed.

(* ---- every other field is kept as a custom entry with trimmed name and value; the last
   occurrence wins; other entries are untouched; names are compared byte for byte ---- *)
Theorem C15_custom : forall h k v, utf8_valid (k ++ COLON :: v) = true -> ~ In COLON k ->
  header_try_from k = None -> parse_header_line h (k ++ COLON :: v) = Ok (insert_custom h (trim k) (trim v)).
Proof. exact custom_rule. Qed.
Theorem C15_custom_last_wins : forall k v l, custom_get k (custom_insert k v l) = Some v.
Proof. exact custom_get_insert_same. Qed.
Theorem C15_custom_frame : forall k k2 v l, k2 <> k -> custom_get k2 (custom_insert k v l) = custom_get k2 l.
Proof. exact custom_get_insert_other. Qed.

Theorem C15_flags_sticky : forall lines h h', headers_fold h lines = Ok h' ->
  (h_expect h = true -> h_expect h' = true) /\ (h_chunked h = true -> h_chunked h' = true).
Proof. exact fold_flags_sticky. Qed.
(* Content-Length and Accept are overwritten by each acceptable occurrence: set_content_length /
   set_accept replace the field (C15_content_length, C15_accept), so the last one wins *)
Check ((fun h n => eq_refl) : forall h n, h_content_length (set_content_length h n) = n).
Check ((fun h t => eq_refl) : forall h t, h_accept (set_accept h t) = t).
(* parsing a header block = folding the line rule over its CRLF-separated lines up to the first
   empty line (on valid UTF-8; otherwise InvalidRequest) *)
Theorem C15_block_is_lines : forall b,
  headers_try_from b = if utf8_valid b then headers_fold headers_default (split_crlf b) else Err InvalidRequest.
Proof. exact block_is_lines. Qed.
Check ((fun h x l r => eq_refl) : forall h x l r, headers_fold h ((x :: l) :: r) =
  match parse_header_tolerant h (x :: l) with Ok h' => headers_fold h' r | Err e => Err e end).

(* white space around names and values is ignored: str::trim strips any padding made of white-space
   characters (ASCII and the non-ASCII White_Space code points, in UTF-8) on both sides, for every
   byte string x *)
Theorem C15_trim_padding : forall p x q, ws_string p -> ws_string q -> trim (p ++ x ++ q) = trim x.
Proof. exact trim_padding. Qed.
Check ((fun p => eq_refl) : forall p, ws_string p = exists cs, Forall ws_char cs /\ p = concat cs).
Check (ws_c1 : forall a, is_ascii_ws a = true -> ws_char [a]).
Check (ws_c2 : forall a b, ws2 a b = true -> ws_char [a; b]).
Check (ws_c3 : forall a b c, ws3 a b c = true -> ws_char [a; b; c]).
Theorem C15_name_padding : forall p k q, ws_string p -> ws_string q -> utf8_valid k = true ->
  header_try_from (p ++ k ++ q) = header_try_from k.
Proof. exact header_name_padding. Qed.
(* a padded header line is treated exactly as the plain one -- same resulting Headers, same
   rejection -- the only difference being that the InvalidValue error of a bad Content-Length quotes
   the padded name and value *)
Theorem C15_padding_ignored : forall h p k q p' v q',
  ws_string p -> ws_string q -> ws_string p' -> ws_string q' ->
  utf8_valid k = true -> utf8_valid v = true -> ~ In COLON k ->
  parse_header_tolerant h ((p ++ k ++ q) ++ COLON :: (p' ++ v ++ q')) = parse_header_tolerant h (k ++ COLON :: v) \/
  (parse_header_tolerant h ((p ++ k ++ q) ++ COLON :: (p' ++ v ++ q'))
     = Err (HeaderError (InvalidValue (p ++ k ++ q) (p' ++ v ++ q'))) /\
   parse_header_tolerant h (k ++ COLON :: v) = Err (HeaderError (InvalidValue k v))).
Proof. exact padding_ignored. Qed.
Theorem C15_padding_ok : forall h p k q p' v q' h',
  ws_string p -> ws_string q -> ws_string p' -> ws_string q' ->
  utf8_valid k = true -> utf8_valid v = true -> ~ In COLON k ->
  (parse_header_tolerant h ((p ++ k ++ q) ++ COLON :: (p' ++ v ++ q')) = Ok h' <->
   parse_header_tolerant h (k ++ COLON :: v) = Ok h').
Proof. exact padding_ok. Qed.
Example C15_ws_example : ws_string [32; 9; 194; 160; 226; 128; 131; 227; 128; 128].
Proof. exact ws_example. Qed.

Example C15_ex :
  headers_try_from (B"content-LENGTH : +007 " ++ CRLF ++ B"Expect:100-continue" ++ CRLF ++ B"expect: nope" ++ CRLF
                    ++ B"X-A: 1" ++ CRLF ++ B"X-A:2" ++ CRLF ++ B"Accept-Encoding: gzip, *;q=0, identity")
  = Ok (mkHeaders 7 true false PlainText [(B"X-A", B"2")]).
Proof. vm_compute. reflexivity. Qed.

Print Assumptions C15_name_case_insensitive.
Print Assumptions C15_recognised_names.
Print Assumptions C15_invalid_utf8_fatal.
Print Assumptions C15_no_colon_fatal.
Print Assumptions C15_content_length.
Print Assumptions C15_u32.
Print Assumptions C15_accept_encoding.
Print Assumptions C15_accept_encoding_empty.
Print Assumptions C15_unsupported_value_ignored.
Print Assumptions C15_expect.
Print Assumptions C15_transfer_encoding.
Print Assumptions C15_accept.
Print Assumptions C15_content_type.
Print Assumptions C15_server.
Print Assumptions C15_custom.
Print Assumptions C15_custom_last_wins.
Print Assumptions C15_custom_frame.
Print Assumptions C15_flags_sticky.
Print Assumptions C15_block_is_lines.
Print Assumptions C15_trim_padding.
Print Assumptions C15_name_padding.
Print Assumptions C15_padding_ignored.
Print Assumptions C15_padding_ok.
