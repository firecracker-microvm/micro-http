(* C07 -- a response is delivered only to the connection that sent its request, in order. *)
From MH Require Import proofs.Server_proofs proofs.Write_proofs proofs.Progress_proofs proofs.Provenance_proofs proofs.Stream_proofs proofs.RunStream_proofs.

(* The token the application holds for a yielded request is the descriptor number.  In every
   world reachable by any client behaviour, any event order and ANY choice of unused descriptor
   numbers by accept (evt_ok (EvListener nf) only asks that nf is not currently open, so numbers
   of closed connections may be reused), an outstanding token's descriptor still names the
   connection instance that issued it: *)
Theorem C07_token_inv : forall BUF w toks fd g, Inv BUF w toks -> In (fd, g) toks ->
  exists x, alookup fd (w_conns w) = Some x /\ sc_gid x = g.
Proof. intros BUF w toks fd g H. apply (inv_tok BUF w toks H). Qed.

(* ... because a connection holding an outstanding token is never reaped (its in-flight count
   equals the number of its outstanding tokens), so its descriptor stays open *)
Theorem C07_never_reaped_with_token : forall BUF, (2 <= BUF)%nat -> N.of_nat BUF < U32_LIMIT ->
  forall w toks, Inv BUF w toks -> Inv BUF (sweep w) toks.
Proof. exact sweep_inv. Qed.
Theorem C07_inflight_counts_tokens : forall BUF w toks fd x, Inv BUF w toks ->
  alookup fd (w_conns w) = Some x -> sc_infl x = N.of_nat (count_g (sc_gid x) toks).
Proof. intros BUF w toks fd x H. apply (inv_infl BUF w toks H). Qed.

(* answering a token: only the connection at that descriptor changes -- the instance that
   yielded the request -- no client's queue is touched by the call, and a response for a closed
   connection is dropped (cc_enqueue does not enqueue on SClosed) *)
Theorem C07_respond_routes : forall BUF, (2 <= BUF)%nat -> N.of_nat BUF < U32_LIMIT ->
  forall w t1 t2 fd g r, Inv BUF w (t1 ++ (fd, g) :: t2) ->
  exists w' x, respond w fd r = inl w' /\ Inv BUF w' (t1 ++ t2) /\
    alookup fd (w_conns w) = Some x /\ sc_gid x = g /\
    (forall fd', fd' <> fd -> alookup fd' (w_conns w') = alookup fd' (w_conns w)) /\
    w_clients w' = w_clients w.
Proof. exact respond_ok. Qed.

(* events only move bytes of the connection they name: every other connection is untouched
   (its queue of responses included); what a connection writes is a prefix of the serialisations
   of what was enqueued on it (C06) *)
Theorem C07_frame : forall BUF w e w' ys,
  handle_event BUF w e = inl (w', ys) ->
  w_killed w' = w_killed w /\ forall fd', ~ touched e fd' -> alookup fd' (w_conns w') = alookup fd' (w_conns w).
Proof. exact handle_frame. Qed.
Theorem C07_bytes_are_enqueued_responses : forall ops w, WInv w -> wops_ok w ops -> Forall no_discard ops ->
  w_acc (wrun w ops) ++ unsent (w_conn (wrun w ops)) = w_com w ++ flat_map serialize (enqueued ops).
Proof. exact wrun_prefix. Qed.

(* the yields of a read carry the descriptor and the instance of the connection that was read *)
Check ((fun BUF w g k => eq_refl) : forall BUF w g k, handle_event BUF w (EvIn g k) =
  match alookup g (w_conns w) with
  | None => inr EPanic
  | Some x =>
      let cl := client_of w (sc_client x) in
      let room := (BUF - length (c_win (sc_conn x)))%nat in
      let n := read_amount k room (length (k_tosrv cl)) in
      match cc_read BUF x (RData (firstn n (k_tosrv cl)) []) with
      | inr err => inr err
      | inl (y, reqs) =>
          let y' := match sc_st y with
                    | AwaitOut => mkSC (sc_conn y) (sc_st y) (sc_infl y) (sc_client y) true (sc_gid y)
                    | _ => y
                    end in
          let cl' := mkCl (k_open cl) (k_shut_wr cl) (k_shut_rd cl) (skipn n (k_tosrv cl)) (k_rx cl) (k_place cl) in
          inl (set_client (set_conn w g y') (sc_client x) cl', map (fun r => (g, sc_gid x, r)) reqs)
      end
  end).

(* for calm worlds (no client has closed): over any poll, in any order of the ready events, every
   connection persists with the same client and its wire is only extended by server-generated
   replies to that client's own input; a response supplied with a token is appended to the wire of
   the connection instance that issued the token and to no other *)
Theorem C07_poll_extends_own_wire_only : forall BUF, (2 <= BUF)%nat -> N.of_nat BUF < U32_LIMIT ->
  forall w toks es w' ys, Inv BUF w toks -> Calm w -> Forall (evt_live w) es -> NoDup (map ev_key es) ->
  poll_with BUF w es = PYield w' ys -> conserved w w'.
Proof. exact poll_conserves. Qed.
Theorem C07_respond_reaches_token_owner_only : forall BUF w t1 t2 fd g r w',
  Inv BUF w (t1 ++ (fd, g) :: t2) -> Calm w -> respond w fd r = inl w' ->
  Calm w' /\
  (exists x x', alookup fd (w_conns w) = Some x /\ sc_gid x = g /\ alookup fd (w_conns w') = Some x' /\
                sc_client x' = sc_client x /\ wire w' x' = wire w x ++ serialize r) /\
  forall fd0 x0, fd0 <> fd -> alookup fd0 (w_conns w) = Some x0 -> alookup fd0 (w_conns w') = Some x0 /\ wire w' x0 = wire w x0.
Proof. exact respond_conserves. Qed.

(* ---- provenance for ALL histories: clients may close at any time, descriptor numbers may be reused ----
   A history is any sequence of: polls (any contract-abiding batch, any order), responses for held
   tokens, and arbitrary actions of clients and environment (send, close, shut down, read, connect,
   signal, change the limit).  There is ONE assignment beta of clients to connection instances that is
   right at every moment: whenever instance g is in the table, under whatever descriptor number, it
   serves client beta g; the world invariant holds throughout (so, by C07_token_inv, a held token
   (fd, g) names a table entry whose instance is g). *)
Theorem C07_one_binding : forall BUF, (2 <= BUF)%nat -> N.of_nat BUF < U32_LIMIT ->
  forall tr, history BUF tr ->
  exists beta, Forall (fun s => bound beta (fst s) /\ Inv BUF (fst s) (snd s)) tr /\
               match tr with s :: _ => Forall (fun s0 => (w_nextg (fst s0) <= w_nextg (fst s))%nat) tr | [] => True end.
Proof. exact one_binding. Qed.
Check ((fun beta w => eq_refl) : forall beta w, bound beta w =
  forall fd x, alookup fd (w_conns w) = Some x -> beta (sc_gid x) = sc_client x).
Check (HPoll : forall BUF w toks es w' ys, Forall (evt_ok w) es -> NoDup (map ev_key es) -> ~ In KKill (map ev_key es) ->
    poll_with BUF w es = PYield w' ys -> hstep BUF (w, toks) (w', ytoks ys ++ toks)).
Check (HRespond : forall BUF w t1 t2 fd g r w', respond w fd r = inl w' -> hstep BUF (w, t1 ++ (fd, g) :: t2) (w', t1 ++ t2)).
Check (HEnv : forall BUF w toks w', w_conns w' = w_conns w -> w_nextg w' = w_nextg w -> hstep BUF (w, toks) (w', toks)).
Check (H0 : forall BUF, history BUF [(world0, [])]).
Check (HS : forall BUF s s' tr, history BUF (s :: tr) -> hstep BUF s s' -> history BUF (s' :: s :: tr)).
(* a response supplied with token (fd, g) reaches the entry whose instance is g and whose client is
   beta g -- not whoever else may have been given descriptor fd *)
Theorem C07_respond_token_client : forall BUF, (2 <= BUF)%nat -> N.of_nat BUF < U32_LIMIT ->
  forall w t1 t2 fd g r w' beta,
  Inv BUF w (t1 ++ (fd, g) :: t2) -> respond w fd r = inl w' -> bound beta w ->
  bound beta w' /\ w_nextg w' = w_nextg w /\ Inv BUF w' (t1 ++ t2) /\
  exists x, alookup fd (w_conns w) = Some x /\ sc_gid x = g /\ sc_client x = beta g.
Proof. exact respond_binding. Qed.
(* every yield carries the descriptor and the instance of the connection that was read *)
Theorem C07_yield_identity : forall BUF, (2 <= BUF)%nat -> N.of_nat BUF < U32_LIMIT ->
  forall w toks e w' ys beta, Inv BUF w toks -> handle_event BUF w e = inl (w', ys) -> bound beta w ->
  exists beta', (forall g, (g < w_nextg w)%nat -> beta' g = beta g) /\ bound beta' w' /\
    (w_nextg w <= w_nextg w')%nat /\
    forall fd g r, In (fd, g, r) ys -> exists x, alookup fd (w_conns w) = Some x /\ sc_gid x = g /\ exists kk, e = EvIn fd kk.
Proof. exact event_binding. Qed.
(* bytes enter the receive queue of client c only from the unsent output of a connection whose
   client is c (a prefix of it), or as the 503 refusal of c itself; in any world, for any event *)
Theorem C07_received_bytes_origin : forall BUF w e w' ys c,
  handle_event BUF w e = inl (w', ys) ->
  exists d, k_rx (client_of w' c) = k_rx (client_of w c) ++ d /\
    (d = [] \/
     (exists fd kk x rest, e = EvOut fd kk /\ alookup fd (w_conns w) = Some x /\ sc_client x = c /\ unsent (sc_conn x) = d ++ rest) \/
     (exists nf rest, e = EvListener nf /\ w_backlog w = c :: rest /\ d = SERVER_FULL_ERROR_MESSAGE)).
Proof. exact event_delivery. Qed.
Theorem C07_sweep_delivers_nothing : forall w c, k_rx (client_of (sweep w) c) = k_rx (client_of w c).
Proof. exact sweep_delivery. Qed.
Theorem C07_respond_delivers_nothing : forall w fd r w' c, respond w fd r = inl w' -> client_of w' c = client_of w c.
Proof. exact respond_delivery. Qed.
(* and unsent output receives only (a) replies the server generated while reading that very
   connection (100 Continue, 400) and (b) the response supplied with a token, on the entry the token
   names, dropped if that entry is closed *)
Theorem C07_read_adds_own_replies_only : forall BUF, (2 <= BUF)%nat -> N.of_nat BUF < U32_LIMIT ->
  forall w toks fd kk w' ys, Inv BUF w toks -> evt_ok w (EvIn fd kk) -> handle_event BUF w (EvIn fd kk) = inl (w', ys) ->
  exists x y gen, alookup fd (w_conns w) = Some x /\ alookup fd (w_conns w') = Some y /\
    unsent (sc_conn y) = unsent (sc_conn x) ++ flat_map serialize gen /\ Forall server_generated gen /\
    forall fd0, fd0 <> fd -> alookup fd0 (w_conns w') = alookup fd0 (w_conns w).
Proof. exact read_unsent. Qed.
Theorem C07_respond_adds_to_token_entry_only : forall w fd r w',
  respond w fd r = inl w' ->
  forall fd0 x0, alookup fd0 (w_conns w) = Some x0 ->
    exists x1, alookup fd0 (w_conns w') = Some x1 /\ sc_gid x1 = sc_gid x0 /\ sc_client x1 = sc_client x0 /\
      unsent (sc_conn x1) = unsent (sc_conn x0) ++
        (if Nat.eqb fd0 fd then match sc_st x0 with SClosed => [] | _ => serialize r end else []).
Proof. exact respond_unsent. Qed.
Example C07_history_example : exists tr w, history 1024 ((w, [(1%nat, 0%nat)]) :: tr).
Proof. exact history_example. Qed.

(* ------------------------------------------------------------------------------------------------
   THE WHOLE STREAM (proofs/Stream_proofs.v).  A history is any sequence of
     GPoll     a poll with any contract-abiding batch (evt_ok, one event per descriptor, any order, any partial
               read / write amounts) that is truthful about hang-ups (evt_true: a hang-up is reported only for a
               client that has hung up; input only when there is input and no hang-up),
     GRespond  a response for a token the application holds,
     GFlush    flush_outgoing_writes,
     GEnv      anything clients and the environment do that leaves the server's table alone -- send, close,
               half-close either way, read, signal the kill switch, change the limit, NEW clients asking to
               connect (a client connects once) -- where a direction that is closed stays closed (env_ok),
   from the empty server.  The bookkeeping is observable from outside: g_rcv c = every byte the server side ever
   appended to c's receive queue (d c is the growth of that queue over the step), g_sup g = the responses supplied
   with a token of instance g in supply order, g_yld g = number of requests yielded for g.
   At every point of every history there are a one-to-one map beta from connection instances to clients and, per
   instance, a sequence log g of responses such that what client c has received is NOTHING, or its own 503
   refusal, or a PREFIX of the serialisation of log g for the one instance g of c; every element of log g is a
   server-generated reply (100 Continue / 400) or a response the application supplied with a token of g, the
   latter forming a SUBSEQUENCE of g_sup g (each at most once, in the order supplied; a response for a closed
   connection is dropped); a token (fd, g) the application holds names a table entry of instance g; and the
   responses supplied for g plus the tokens of g still held are exactly the requests yielded for g.  Hence a
   response supplied with a token of instance g can only appear in the stream of client beta g, whatever
   descriptor numbers are reused. *)
Theorem C07_stream_provenance : forall BUF, (2 <= BUF)%nat -> N.of_nat BUF < U32_LIMIT ->
  forall w toks G, greach BUF (w, toks, G) ->
  exists (beta : nat -> nat) (log : nat -> list item),
    (forall g g', (g < w_nextg w)%nat -> (g' < w_nextg w)%nat -> beta g = beta g' -> g = g') /\
    (forall fd x, alookup fd (w_conns w) = Some x -> beta (sc_gid x) = sc_client x) /\
    (forall fd g, In (fd, g) toks -> exists x, alookup fd (w_conns w) = Some x /\ sc_gid x = g) /\
    (forall g, gens_ok (log g) /\ subseq (apps (log g)) (g_sup G g)) /\
    (forall g, (length (g_sup G g) + count_g g toks = g_yld G g)%nat) /\
    forall c, g_rcv G c = [] \/
              (g_rcv G c = SERVER_FULL_ERROR_MESSAGE /\ forall g, (g < w_nextg w)%nat -> beta g <> c) \/
              exists g tail, (g < w_nextg w)%nat /\ beta g = c /\ g_rcv G c ++ tail = ser (log g).
Proof. exact stream_provenance. Qed.

(* the definitions the statement rests on, as equivalences *)
Theorem C07_stream_vocabulary :
  (forall l, ser l = flat_map (fun i => serialize (iresp i)) l) /\
  (forall l, apps l = flat_map (fun i => match i with IApp r => [r] | IGen _ => [] end) l) /\
  (forall l, gens_ok l <-> Forall (fun i => match i with IGen r => server_generated r | IApp _ => True end) l) /\
  (forall r, server_generated r <-> (exists v, r = response_new v Continue) \/ (exists e, r = bad_request_response e)) /\
  (forall w e, evt_true w e <->
     match e with
     | EvIn fd _ => forall x, alookup fd (w_conns w) = Some x ->
                     k_hup (client_of w (sc_client x)) = false /\ k_tosrv (client_of w (sc_client x)) <> []
     | EvHup fd => forall x, alookup fd (w_conns w) = Some x -> k_hup (client_of w (sc_client x)) = true
     | _ => True
     end) /\
  (forall w w' seen new, env_ok w w' seen new <->
     w_conns w' = w_conns w /\ w_nextg w' = w_nextg w /\ w_backlog w' = w_backlog w ++ new /\
     NoDup new /\ (forall c, In c new -> ~ In c seen) /\
     forall c, In c seen ->
       (k_hup (client_of w c) = true -> k_hup (client_of w' c) = true) /\
       (k_can_receive (client_of w c) = false -> k_can_receive (client_of w' c) = false)).
Proof.
  split; [reflexivity|]. split; [reflexivity|]. split; [intros l; reflexivity|]. split; [intros r; reflexivity|].
  split; [intros w e; destruct e; reflexivity|]. intros; reflexivity.
Qed.

(* the steps of a history: each constructor of gstep is exactly this *)
Theorem C07_stream_steps : forall BUF s s', gstep BUF s s' <->
  (exists w toks G es w' ys d G',
     s = (w, toks, G) /\ s' = (w', ytoks ys ++ toks, G') /\
     Forall (evt_ok w) es /\ Forall (evt_true w) es /\ NoDup (map ev_key es) /\ ~ In KKill (map ev_key es) /\
     poll_with BUF w es = PYield w' ys /\
     (forall c, k_rx (client_of w' c) = k_rx (client_of w c) ++ d c) /\
     (forall c, g_rcv G' c = g_rcv G c ++ d c) /\
     (forall g, g_yld G' g = (g_yld G g + count_g g (ytoks ys))%nat) /\
     (forall g, g_sup G' g = g_sup G g) /\ g_seen G' = g_seen G) \/
  (exists w t1 t2 fd g r w' G G',
     s = (w, t1 ++ (fd, g) :: t2, G) /\ s' = (w', t1 ++ t2, G') /\ respond w fd r = inl w' /\
     (forall g0, g_sup G' g0 = if Nat.eqb g0 g then g_sup G g ++ [r] else g_sup G g0) /\
     (forall c, g_rcv G' c = g_rcv G c) /\ (forall g0, g_yld G' g0 = g_yld G g0) /\ g_seen G' = g_seen G) \/
  (exists w toks G d G',
     s = (w, toks, G) /\ s' = (flush w, toks, G') /\
     (forall c, k_rx (client_of (flush w) c) = k_rx (client_of w c) ++ d c) /\
     (forall c, g_rcv G' c = g_rcv G c ++ d c) /\
     (forall g, g_sup G' g = g_sup G g) /\ (forall g, g_yld G' g = g_yld G g) /\ g_seen G' = g_seen G) \/
  (exists w toks w' new G G',
     s = (w, toks, G) /\ s' = (w', toks, G') /\ env_ok w w' (g_seen G) new /\
     (forall c, g_rcv G' c = g_rcv G c) /\ (forall g, g_sup G' g = g_sup G g) /\ (forall g, g_yld G' g = g_yld G g) /\
     g_seen G' = g_seen G ++ new).
Proof.
  intros BUF s s'. split.
  - intros H. inversion H; subst.
    + left. do 8 eexists. repeat (split; [eassumption || reflexivity|]). assumption.
    + right. left. do 9 eexists. repeat (split; [eassumption || reflexivity|]). assumption.
    + right. right. left. do 5 eexists. repeat (split; [eassumption || reflexivity|]). assumption.
    + right. right. right. do 6 eexists. repeat (split; [eassumption || reflexivity|]). assumption.
  - intros [H|[H|[H|H]]].
    + destruct H as (w & toks & G & es & w' & ys & d & G' & -> & -> & A1 & A2 & A3 & A4 & A5 & A6 & A7 & A8 & A9 & A10).
      eapply GPoll; eauto.
    + destruct H as (w & t1 & t2 & fd & g & r & w' & G & G' & -> & -> & A1 & A2 & A3 & A4 & A5).
      eapply GRespond; eauto.
    + destruct H as (w & toks & G & d & G' & -> & -> & A1 & A2 & A3 & A4 & A5).
      eapply GFlush; eauto.
    + destruct H as (w & toks & w' & new & G & G' & -> & -> & A1 & A2 & A3 & A4 & A5).
      eapply GEnv; eauto.
Qed.
Theorem C07_stream_histories : forall BUF s, greach BUF s <->
  s = (world0, [], ghost0) \/ exists s0, greach BUF s0 /\ gstep BUF s0 s.
Proof.
  intros BUF s. split.
  - intros H. inversion H; subst; [left; reflexivity|right; eauto].
  - intros [->|(s0 & H0 & H1)]; [apply GR0|eapply GRS; eauto].
Qed.

(* the executable model's own poll (level-triggered readiness of the model kernel, which the correspondence run
   executes against the real server) is such a step whenever the switch has not been signalled *)
Theorem C07_executable_poll_is_a_step : forall BUF, (2 <= BUF)%nat -> N.of_nat BUF < U32_LIMIT ->
  forall w toks G beta log w' ys,
  SIg BUF (w, toks, G) beta log -> w_killed w = false -> poll BUF w = PYield w' ys ->
  gstep BUF (w, toks, G) (w', ytoks ys ++ toks, gpoll G w w' ys).
Proof. exact canonical_gstep. Qed.
Theorem C07_executable_poll_truthful : forall BUF w toks, Inv BUF w toks -> Forall (evt_true w) (ready_events w).
Proof. exact ready_events_true. Qed.

(* ... and so is every operation of the server interpreter of run/Run.v (the one the correspondence run executes
   against the real server): after ANY operation list -- connects, sends, closes, half-closes, client reads, polls,
   polls to quiescence, responses to any held token, flushes, kill, limit changes -- in which every connect uses a
   client number not used before, the whole-stream statement holds for the interpreter's world, the tokens it holds
   and the bookkeeping computed alongside (ghost_ops: received bytes from the growth of the receive queues, supplied
   responses from the respond operations, yields from the polls) *)
Theorem C07_executed_histories_stream : forall BUF, (2 <= BUF)%nat -> N.of_nat BUF < U32_LIMIT ->
  forall ops id hk, connects_fresh [] ops ->
  let w := fst (run_srv_ops BUF id 0 hk world0 ops) in
  stream_statement w (ytoks (w_tokens w)) (ghost_ops BUF id 0 hk world0 ghost0 ops).
Proof. exact executed_histories_stream. Qed.
Theorem C07_stream_statement_is : forall w toks G, stream_statement w toks G <->
  exists (beta : nat -> nat) (log : nat -> list item),
    (forall g g', (g < w_nextg w)%nat -> (g' < w_nextg w)%nat -> beta g = beta g' -> g = g') /\
    (forall fd x, alookup fd (w_conns w) = Some x -> beta (sc_gid x) = sc_client x) /\
    (forall fd g, In (fd, g) toks -> exists x, alookup fd (w_conns w) = Some x /\ sc_gid x = g) /\
    (forall g, gens_ok (log g) /\ subseq (apps (log g)) (g_sup G g)) /\
    (forall g, (length (g_sup G g) + count_g g toks = g_yld G g)%nat) /\
    forall c, g_rcv G c = [] \/
              (g_rcv G c = SERVER_FULL_ERROR_MESSAGE /\ forall g, (g < w_nextg w)%nat -> beta g <> c) \/
              exists g tail, (g < w_nextg w)%nat /\ beta g = c /\ g_rcv G c ++ tail = ser (log g).
Proof. intros; reflexivity. Qed.

(* non-vacuity: connect, send a request, two polls, the application answers, one more poll: the client has
   received exactly that response *)
Example C07_stream_example :
  exists w toks G, greach 1024 (w, toks, G) /\
    g_rcv G 0%nat = serialize (response_new Http11 NoContent) /\
    g_sup G 0%nat = [response_new Http11 NoContent] /\ g_yld G 0%nat = 1%nat /\ toks = [].
Proof. exact stream_example. Qed.

(* Assumed, not proved (kernel contract): K3 bytes written on a descriptor reach that descriptor's peer in order
   (the model's k_rx of the connection's client); K4 truthfulness of hang-up / input reports as stated in evt_true;
   a closed or shut-down direction of a socket stays so (env_ok); a client socket connects once.  The correspondence
   run decides the same statement on real sockets with tagged requests and echoing responses. *)

Print Assumptions C07_token_inv.
Print Assumptions C07_never_reaped_with_token.
Print Assumptions C07_inflight_counts_tokens.
Print Assumptions C07_respond_routes.
Print Assumptions C07_frame.
Print Assumptions C07_bytes_are_enqueued_responses.
Print Assumptions C07_poll_extends_own_wire_only.
Print Assumptions C07_respond_reaches_token_owner_only.
Print Assumptions C07_one_binding.
Print Assumptions C07_respond_token_client.
Print Assumptions C07_yield_identity.
Print Assumptions C07_received_bytes_origin.
Print Assumptions C07_sweep_delivers_nothing.
Print Assumptions C07_respond_delivers_nothing.
Print Assumptions C07_read_adds_own_replies_only.
Print Assumptions C07_respond_adds_to_token_entry_only.
Print Assumptions C07_stream_provenance.
Print Assumptions C07_stream_vocabulary.
Print Assumptions C07_stream_steps.
Print Assumptions C07_stream_histories.
Print Assumptions C07_executable_poll_is_a_step.
Print Assumptions C07_executable_poll_truthful.
Print Assumptions C07_stream_example.
Print Assumptions C07_executed_histories_stream.
Print Assumptions C07_stream_statement_is.
