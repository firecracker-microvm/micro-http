(* C18 -- shutdown request always wins: polling reports it and never blocks. *)
From MH Require Import proofs.Server_proofs proofs.RunInv_proofs.

(* once signalled, the kill switch's event is in every batch (K4: at most MAX_CONNECTIONS + 2
   descriptors are registered and the events array has that size; K6: the eventfd stays readable):
   the poll is enabled ... *)
Theorem C18_enabled : forall w, w_killed w = true -> In EvKill (ready_events w).
Proof. exact kill_wakes. Qed.

(* ... and whatever is handled before the kill event, in whatever order, in every world
   satisfying the invariant (idle, partial requests, unsent output, unanswered requests, at
   capacity with a client waiting), the poll reports the shutdown (the u32 overflow of an
   in-flight counter is the only other possibility) *)
Theorem C18_wins : forall BUF, (2 <= BUF)%nat -> N.of_nat BUF < U32_LIMIT ->
  forall es w toks acc, Inv BUF w toks -> Forall (evt_ok w) es -> NoDup (map ev_key es) -> In EvKill es ->
  handle_all BUF w es acc = inr EShutdown \/ handle_all BUF w es acc = inr EOverflow.
Proof. exact poll_kill. Qed.

(* the canonical batch of the executable model puts the kill event first *)
Theorem C18_poll_reports_shutdown : forall BUF w, w_killed w = true -> poll BUF w = Server.PErr EShutdown.
Proof. exact poll_killed. Qed.

(* before it is signalled its event never occurs, so its presence changes nothing *)
Theorem C18_inert : forall w, w_killed w = false -> ~ In EvKill (ready_events w).
Proof. exact kill_inert. Qed.
Theorem C18_events_preserve_flag : forall BUF w e w' ys,
  handle_event BUF w e = inl (w', ys) -> w_killed w' = w_killed w.
Proof. intros BUF w e w' ys H. apply (handle_frame BUF w e w' ys H). Qed.

(* over executed histories: once the switch is signalled, whatever clients and application do afterwards
   (any list of operations of the interpreter the correspondence run executes), every poll reports the
   shutdown -- in the canonical event order, without any hypothesis on the state *)
Theorem C18_executed_kill_is_forever : forall BUF ops id i hk w,
  w_killed w = true -> poll BUF (fst (run_srv_ops BUF id i hk w ops)) = Server.PErr EShutdown.
Proof. exact executed_kill_is_forever. Qed.

(* second clause, over executed histories: a history in which the switch is never signalled runs identically --
   same worlds, same observations -- with and without a kill switch registered *)
Theorem C18_kill_switch_inert : forall BUF ops id i w,
  Forall (fun op => decode_sop op <> SKill) ops ->
  run_srv_ops BUF id i true w ops = run_srv_ops BUF id i false w ops.
Proof. exact kill_switch_inert. Qed.

Print Assumptions C18_enabled.
Print Assumptions C18_wins.
Print Assumptions C18_poll_reports_shutdown.
Print Assumptions C18_inert.
Print Assumptions C18_events_preserve_flag.
Print Assumptions C18_executed_kill_is_forever.
Print Assumptions C18_kill_switch_inert.
