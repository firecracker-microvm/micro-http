(* C11 -- a rejected request is never delivered later; parsing restarts clean after errors. *)
From MH Require Import proofs.Impl_proofs proofs.ServerYield_proofs.

(* whenever try_read reports a parse error -- from ANY state, for ANY read result -- the parser
   fields (state, buffered bytes, pending request, body accumulator, remaining length, held
   descriptors) are those of a newly created connection with the same limit *)
Theorem C11_reset : forall BUF c ev c' e sys,
  try_read BUF c ev = (c', RdErr (ParseError e), sys) -> parser_view c' = parser_view (new_conn (c_pmax c')).
Proof. exact parse_error_resets. Qed.
Check (eq_refl : parser_view = fun c => (c_state c, c_win c, c_pending c, c_body_vec c, c_body_left c, c_files c)).

(* and everything read from then on is handled exactly as a new connection would handle it:
   same delivered requests, same queued interim responses, same first error *)
Theorem C11_as_fresh : forall BUF, (2 <= BUF)%nat -> N.of_nat BUF < U32_LIMIT ->
  forall c ev c' e sys evs,
  try_read BUF c ev = (c', RdErr (ParseError e), sys) ->
  evs_ok BUF c' evs -> evs_ok BUF (new_conn (c_pmax c')) evs ->
  exists outs,
    map core (c_parsed (fst (reads BUF c' evs))) = map core (c_parsed c') ++ outs /\
    map core (c_parsed (fst (reads BUF (new_conn (c_pmax c')) evs))) = outs /\
    (exists rq, c_rq (fst (reads BUF c' evs)) = c_rq c' ++ rq /\ c_rq (fst (reads BUF (new_conn (c_pmax c')) evs)) = rq) /\
    snd (reads BUF c' evs) = snd (reads BUF (new_conn (c_pmax c')) evs).
Proof. exact after_error_as_new. Qed.

(* non-vacuity, and the replay of the defect repaired by the fix: commit: the rejected /rej
   request is not delivered by the continuation *)
Example C11_ex :
  let c1 := fst (fst (try_read 1024 (new_conn 51200)
                 (RData (B"GET /rej HTTP/1.1" ++ CRLF ++ B"Content-Length: alpha" ++ CRLF) []))) in
  let r2 := reads 1024 c1 [RData (B"X-a: b" ++ CRLF ++ CRLF) []] in
  parser_view c1 = parser_view (new_conn 51200) /\ c_parsed (fst r2) = [] /\ snd r2 = Some InvalidRequest.
Proof. vm_compute. auto. Qed.
Example C11_ex_not_delivered :
  let c1 := fst (fst (try_read 1024 (new_conn 51200)
                 (RData (B"GET /rej HTTP/1.1" ++ CRLF ++ B"Content-Length: alpha" ++ CRLF) []))) in
  c_parsed (fst (reads 1024 c1 [RData (B"X-a: b" ++ CRLF ++ CRLF) []])) = [].
Proof. exact (proj1 (proj2 C11_ex)). Qed.

(* at the server: a read whose bytes the parser rejects yields nothing -- the request answered with 400 is not
   yielded then, and cannot be yielded later, because the connection's parser is that of a new connection
   (waiting for a request line, empty window, nothing parsed, no descriptors held, same limit); the 400 is queued *)
Theorem C11_server_rejected_read : forall BUF, (2 <= BUF)%nat -> N.of_nat BUF < U32_LIMIT ->
  forall w toks fd kk w' ys x ph outs e,
  Inv BUF w toks -> alookup fd (w_conns w) = Some x -> CInv BUF (sc_conn x) ph ->
  k_tosrv (client_of w (sc_client x)) <> [] ->
  handle_event BUF w (EvIn fd kk) = inl (w', ys) ->
  let c := sc_conn x in
  let t := k_tosrv (client_of w (sc_client x)) in
  let d := firstn (read_amount kk (BUF - length (c_win c)) (length t)) t in
  runT BUF (c_pmax c) ph (c_win c ++ d) [] = RErr outs e ->
  ys = [] /\
  exists y, alookup fd (w_conns w') = Some y /\ sc_gid y = sc_gid x /\ sc_client y = sc_client x /\
    CInv BUF (sc_conn y) PLine /\ c_win (sc_conn y) = [] /\ c_parsed (sc_conn y) = [] /\ c_files (sc_conn y) = [] /\
    c_pmax (sc_conn y) = c_pmax c /\
    unsent (sc_conn y) = unsent c ++ flat_map serialize (conts_of outs ++ [bad_request_response e]).
Proof. exact server_rejected_read. Qed.
(* and one malformed request cannot make later well-formed requests fail: from that state, polling while ready
   yields exactly the requests the whole-stream parser, started afresh, delivers on the input that follows *)
Theorem C11_server_continues_as_new : forall BUF, (2 <= BUF)%nat -> N.of_nat BUF < U32_LIMIT ->
  forall w toks acc fd x phF carryF outsF,
  Inv BUF w toks -> Calm w -> alookup fd (w_conns w) = Some x ->
  CInv BUF (sc_conn x) PLine -> c_win (sc_conn x) = [] -> c_parsed (sc_conn x) = [] -> c_files (sc_conn x) = [] ->
  parse_stream BUF (c_pmax (sc_conn x)) (k_tosrv (client_of w (sc_client x))) = RMore phF carryF outsF ->
  exists n, match drive BUF n w acc with
            | DQuiet w2 ys =>
                yields_of fd ys = yields_of fd acc ++ map (fun r => (fd, sc_gid x, r)) (reqs_of outsF []) /\
                exists x2, alookup fd (w_conns w2) = Some x2 /\ CInv BUF (sc_conn x2) phF /\ c_win (sc_conn x2) = carryF /\
                           sc_gid x2 = sc_gid x /\ k_tosrv (client_of w2 (sc_client x)) = []
            | DOverflow => True
            | DFuel => False
            end.
Proof. exact server_continues_as_new. Qed.

Print Assumptions C11_reset.
Print Assumptions C11_as_fresh.
Print Assumptions C11_server_rejected_read.
Print Assumptions C11_server_continues_as_new.
