(* C07 over the EXECUTED histories: the server interpreter of run/Run.v -- the one the correspondence run executes
   against the real server on real sockets -- only ever produces histories that satisfy the hypotheses of the
   whole-stream theorem (truthful batches, closed directions stay closed, ...), provided every connect operation
   uses a client number not used before (a client socket connects once).  The bookkeeping (what each client has
   received, what the application supplied, what was yielded) is computed alongside by ghost_sop. *)
From MH Require Export proofs.RunInv_proofs proofs.Stream_proofs.

Section RS.
Variable BUF : nat.
Hypothesis BUF_min : (2 <= BUF)%nat.
Hypothesis BUF_u32 : N.of_nat BUF < U32_LIMIT.
Notation Inv := (Inv BUF).
Notation SI := (SI BUF).

Definition RS (w : world) (G : ghost) : Prop :=
  exists beta log, SI w (ytoks (w_tokens w)) (g_rcv G) (g_sup G) (g_yld G) (g_seen G) beta log.

Definition ghost_poll (w : world) (G : ghost) : ghost :=
  match poll BUF w with
  | PYield w' ys => gpoll G w w' ys
  | _ => G
  end.

Fixpoint ghost_poll_many (fuel : nat) (pre : bytes) (w : world) (G : ghost) : ghost :=
  match fuel with
  | O => G
  | S f => match poll BUF w with
           | PYield _ _ => ghost_poll_many f pre (fst (srv_poll BUF pre w)) (ghost_poll w G)
           | _ => G
           end
  end.

Definition ghost_respond (w : world) (G : ghost) (k : N) (mk : request -> response) : ghost :=
  match w_tokens w with
  | [] => G
  | _ => match nth_error (w_tokens w) (N.to_nat (k mod N.of_nat (length (w_tokens w)))) with
         | None => G
         | Some (_, gi, rq) => gresp G gi (mk rq)
         end
  end.

Definition gflush (G : ghost) (w : world) : ghost :=
  mkG (fun c => g_rcv G c ++ delta w (flush w) c) (g_sup G) (g_yld G) (g_seen G).

Definition ghost_sop (id : N) (i : nat) (w : world) (G : ghost) (o : sop) : ghost :=
  let pre := B"srv " ++ dec id ++ B" " ++ decn i ++ B" " in
  match o with
  | SConnect c => genv G [c]
  | SPoll => ghost_poll w G
  | SPollMany k => ghost_poll_many (N.to_nat k) pre w G
  | SRespond k r => ghost_respond w G k (fun _ => response_of r)
  | SEcho k => ghost_respond w G k (fun rq => apply_op (response_new Http11 OK) (SetBody (B"echo:" ++ rl_uri (r_line rq))))
  | SFlush => gflush G w
  | _ => G
  end.

Definition fresh_ok (G : ghost) (o : sop) : Prop :=
  match o with SConnect c => ~ In c (g_seen G) | _ => True end.

(* a step of clients or environment in which nobody new asks to connect *)
Lemma SI_env_same w w' toks G beta log :
  SIg BUF (w, toks, G) beta log -> env_ok w w' (g_seen G) [] -> SIg BUF (w', toks, G) beta log.
Proof.
  intros S He. pose proof (env_stream BUF _ _ _ _ _ _ _ S He) as S'.
  cbn [SIg genv g_rcv g_sup g_yld g_seen] in S'. rewrite app_nil_r in S'. exact S'.
Qed.

Lemma RS_env w w' G : RS w G -> env_ok w w' (g_seen G) [] -> w_tokens w' = w_tokens w -> RS w' G.
Proof. intros (beta & log & S) He Et. exists beta, log. rewrite Et. exact (SI_env_same w w' _ G beta log S He). Qed.

Lemma same_clients_env w w' seen :
  w_conns w' = w_conns w -> w_nextg w' = w_nextg w -> w_backlog w' = w_backlog w -> w_clients w' = w_clients w ->
  env_ok w w' seen [].
Proof.
  intros E1 E2 E3 E4. unfold env_ok. rewrite app_nil_r.
  split; [exact E1|]. split; [exact E2|]. split; [exact E3|]. split; [constructor|]. split; [intros c0 []|].
  intros c0 _. unfold client_of. rewrite E4. auto.
Qed.

(* a client acts on its own socket: a direction that is closed stays closed *)
Lemma RS_set_client w c cl' G :
  (k_hup (client_of w c) = true -> k_hup cl' = true) ->
  (k_can_receive (client_of w c) = false -> k_can_receive cl' = false) ->
  RS w G -> RS (set_client w c cl') G.
Proof.
  intros M1 M2 HS. apply (RS_env w); [exact HS| |reflexivity].
  unfold env_ok. cbn [set_client w_conns w_nextg w_backlog]. rewrite app_nil_r.
  split; [reflexivity|]. split; [reflexivity|]. split; [reflexivity|]. split; [constructor|]. split; [intros c0 []|].
  intros c0 _.
  rewrite client_of_set_client. destruct (Nat.eqb_spec c c0) as [<-|]; [|auto].
  unfold client_of in *. destruct (alookup c (w_clients w)) as [cl|]; auto.
Qed.

Lemma srv_poll_RS pre w G : RS w G -> RS (fst (srv_poll BUF pre w)) (ghost_poll w G).
Proof.
  intros (beta & log & S). unfold srv_poll, ghost_poll.
  pose proof (si_inv _ S) as HI.
  pose proof (poll_outcomes BUF BUF_min BUF_u32 w _ HI) as PO.
  destruct (poll BUF w) as [|w' ys|e] eqn:P; cbn [fst]; [exists beta, log; exact S| |exists beta, log; exact S].
  destruct PO as [_ Hk].
  pose proof (canonical_gstep BUF BUF_min BUF_u32 w (ytoks (w_tokens w)) G beta log w' ys S Hk P) as St.
  destruct (gstep_SI BUF BUF_min BUF_u32 (w, ytoks (w_tokens w), G) _ beta log S St) as (beta' & log' & S').
  exists beta', log'. cbn [w_tokens]. rewrite (poll_tokens _ _ _ _ P).
  set (w'' := Server.mkW (w_clients w') (w_conns w') (w_backlog w') (w_tokens w ++ map (fun p => snd p) (sort_yields ys))
                         (w_nextg w') (w_limit w') (w_killed w')).
  assert (He : env_ok w' w'' (g_seen (gpoll G w w' ys)) []) by (apply same_clients_env; reflexivity).
  (* the interpreter keeps the yields of a poll sorted, behind the tokens it held *)
  destruct (poll_toks_same (w_tokens w) ys) as [T1 T2].
  exact (SI_ext BUF w'' _ _ _ _ beta' log' T1 T2 (geq_refl _) (SI_env_same w' w'' _ _ _ _ S' He)).
Qed.

Lemma srv_poll_many_RS : forall fuel pre w G, RS w G -> RS (fst (srv_poll_many BUF fuel pre w)) (ghost_poll_many fuel pre w G).
Proof.
  induction fuel as [|f IH]; intros pre w G HS; cbn [srv_poll_many ghost_poll_many]; [exact HS|].
  pose proof (srv_poll_RS pre w G HS) as H1. unfold ghost_poll in *.
  destruct (srv_poll BUF pre w) as [w' line] eqn:SP. cbn [fst] in H1.
  destruct (poll BUF w) as [|w1 ys|e] eqn:P; cbn [fst]; [exact H1| |exact H1].
  specialize (IH pre w' _ H1). destruct (srv_poll_many BUF f pre w') as [w'' ls]. exact IH.
Qed.

Lemma respond_at_RS pre w G k mk : RS w G -> RS (fst (respond_at pre w k mk)) (ghost_respond w G k mk).
Proof.
  intros HS. unfold respond_at, ghost_respond. destruct (w_tokens w) as [|t0 ts] eqn:Tk; [exact HS|]. rewrite <- Tk.
  set (idx := N.to_nat (k mod N.of_nat (length (w_tokens w)))).
  destruct (nth_error (w_tokens w) idx) as [[[g gi] rq]|] eqn:Nth; [|exact HS].
  set (w1 := Server.mkW (w_clients w) (w_conns w) (w_backlog w) (remove_nth idx (w_tokens w)) (w_nextg w) (w_limit w) (w_killed w)).
  pose proof (RunInv_proofs.nth_error_split _ _ _ Nth) as Sp.
  destruct HS as (beta & log & S0).
  assert (S1 : SIg BUF (w1, ytoks (firstn idx (w_tokens w)) ++ (g, gi) :: ytoks (skipn (S idx) (w_tokens w)), G) beta log).
  { assert (He : env_ok w w1 (g_seen G) []) by (apply same_clients_env; reflexivity).
    pose proof (SI_env_same w w1 _ G beta log S0 He) as S'. rewrite Sp, ytoks_app in S' at 1. exact S'. }
  pose proof (si_inv _ S1) as I1.
  destruct (respond_ok BUF BUF_min BUF_u32 w1 _ _ g gi (mk rq) I1) as (w2 & x & Hr & _).
  rewrite Hr. cbn [fst].
  destruct (respond_stream BUF BUF_min BUF_u32 w1 _ _ g gi (mk rq) w2 G beta log S1 Hr) as (log' & S2).
  exists beta, log'.
  rewrite (proj1 (respond_tokens _ _ _ _ Hr)). cbn [w1 w_tokens]. rewrite remove_nth_split, ytoks_app. exact S2.
Qed.

Lemma flush_RS w G : RS w G -> RS (flush w) (gflush G w).
Proof.
  intros (beta & log & S). destruct (flush_stream BUF BUF_min BUF_u32 w _ G beta log S) as (log' & S').
  exists beta, log'. destruct (flush_tokens w) as (-> & _).
  refine (SI_geq BUF _ _ (gpoll G w (flush w) []) (gflush G w) _ _ _ S').
  exact (conj (fun _ => eq_refl) (conj (fun _ => eq_refl) (conj (fun _ => eq_sym (Nat.add_0_r _)) eq_refl))).
Qed.

Theorem run_sop_RS id i hk w G o :
  RS w G -> fresh_ok G o -> RS (fst (run_sop BUF id i hk w o)) (ghost_sop id i w G o).
Proof.
  intros HS Hf. destruct o; cbn [run_sop ghost_sop fst].
  - (* connect *)
    cbn [fresh_ok] in Hf. destruct HS as (beta & log & S). exists beta, log. cbn [w_tokens].
    apply (env_stream BUF _ _ G beta log _ [c] S).
    unfold env_ok. cbn [w_conns w_nextg w_backlog].
    split; [reflexivity|]. split; [reflexivity|]. split; [reflexivity|].
    split; [repeat constructor; intros []|]. split; [intros c0 [<-|[]]; exact Hf|].
    intros c0 Hin. unfold client_of. cbn [w_clients]. rewrite alookup_app_end.
    destruct (alookup c0 (w_clients w)) as [cl|]; [auto|].
    destruct (Nat.eqb c c0) eqn:E; [|auto]. apply Nat.eqb_eq in E. subst c0. contradiction.
  - (* send *)
    match goal with |- context [if ?cnd then _ else _] => destruct cnd end; cbn [fst]; [|exact HS].
    apply RS_set_client; auto.
  - (* close *)
    apply RS_set_client; auto.
  - (* shutdown(WR) *)
    apply RS_set_client; auto. intros _. unfold k_hup. cbn. apply Bool.orb_true_r.
  - (* shutdown(RD) *)
    apply RS_set_client; auto. intros _. unfold k_can_receive. cbn. apply Bool.andb_false_r.
  - (* client reads *)
    apply RS_set_client; auto.
  - (* poll *)
    pose proof (srv_poll_RS (B"srv " ++ dec id ++ B" " ++ decn i ++ B" ") w G HS) as H1.
    destruct (srv_poll BUF _ w). exact H1.
  - apply respond_at_RS. exact HS.
  - apply respond_at_RS. exact HS.
  - apply flush_RS. exact HS.
  - (* kill *)
    destruct hk; cbn [fst]; [|exact HS]. apply (RS_env w); [exact HS| |reflexivity]. apply same_clients_env; reflexivity.
  - (* limit *)
    apply (RS_env w); [exact HS| |reflexivity]. apply same_clients_env; reflexivity.
  - apply srv_poll_many_RS. exact HS.
  - exact HS.
Qed.

Fixpoint ghost_ops (id : N) (i : nat) (hk : bool) (w : world) (G : ghost) (ops : list arg) : ghost :=
  match ops with
  | [] => G
  | op :: r => ghost_ops id (S i) hk (fst (run_srv_op BUF id i hk w op)) (ghost_sop id i w G (decode_sop op)) r
  end.

Fixpoint fresh_ops (G : ghost) (id : N) (i : nat) (hk : bool) (w : world) (ops : list arg) : Prop :=
  match ops with
  | [] => True
  | op :: r => fresh_ok G (decode_sop op) /\
               fresh_ops (ghost_sop id i w G (decode_sop op)) id (S i) hk (fst (run_srv_op BUF id i hk w op)) r
  end.

Theorem run_srv_ops_RS : forall ops id i hk w G,
  RS w G -> fresh_ops G id i hk w ops -> RS (fst (run_srv_ops BUF id i hk w ops)) (ghost_ops id i hk w G ops).
Proof.
  induction ops as [|op r IH]; intros id i hk w G HS Hf; cbn [run_srv_ops ghost_ops]; [exact HS|].
  destruct Hf as [Hf1 Hf2].
  pose proof (run_sop_RS id i hk w G (decode_sop op) HS Hf1) as H1. rewrite <- run_srv_op_sop in H1.
  destruct (run_srv_op BUF id i hk w op) as [w' ls]. cbn [fst] in *.
  specialize (IH id (S i) hk w' _ H1 Hf2). destruct (run_srv_ops BUF id (S i) hk w' r) as [w'' ls']. exact IH.
Qed.

Lemma RS_world0 : RS world0 ghost0.
Proof. exists (fun _ => 0%nat), (fun _ => []). apply (SI_world0 BUF BUF_min BUF_u32). Qed.

(* the seen-list of the bookkeeping is just the connect operations so far: freshness is a condition on the
   operation list alone *)
Lemma ghost_sop_seen id i w G o :
  g_seen (ghost_sop id i w G o) = match o with SConnect c => g_seen G ++ [c] | _ => g_seen G end.
Proof.
  destruct o; cbn [ghost_sop genv gflush g_seen]; try reflexivity.
  - unfold ghost_poll. destruct (poll BUF w); reflexivity.
  - unfold ghost_respond. destruct (w_tokens w); [reflexivity|]. destruct (nth_error _ _) as [[[? ?] ?]|]; reflexivity.
  - unfold ghost_respond. destruct (w_tokens w); [reflexivity|]. destruct (nth_error _ _) as [[[? ?] ?]|]; reflexivity.
  - generalize (B"srv " ++ dec id ++ B" " ++ decn i ++ B" "). generalize w G. induction (N.to_nat k) as [|f IH]; intros w0 G0 pre; cbn [ghost_poll_many]; [reflexivity|].
    destruct (poll BUF w0) eqn:P; try reflexivity. rewrite IH. unfold ghost_poll. rewrite P. reflexivity.
Qed.

Fixpoint connects_fresh (seen : list nat) (ops : list arg) : Prop :=
  match ops with
  | [] => True
  | op :: r => match decode_sop op with
               | SConnect c => ~ In c seen /\ connects_fresh (seen ++ [c]) r
               | _ => connects_fresh seen r
               end
  end.

Lemma connects_fresh_ops : forall ops G id i hk w, connects_fresh (g_seen G) ops -> fresh_ops G id i hk w ops.
Proof.
  induction ops as [|op r IH]; intros G id i hk w H; cbn [fresh_ops connects_fresh] in *; [exact I|].
  pose proof (ghost_sop_seen id i w G (decode_sop op)) as Es.
  destruct (decode_sop op) eqn:D; cbn [fresh_ok];
    try (split; [exact I|]; apply IH; rewrite Es; exact H).
  destruct H as [H1 H2]. split; [exact H1|]. apply IH. rewrite Es. exact H2.
Qed.

(* C07 over executed histories: after ANY operation list in which every connect uses a new client number, the
   whole-stream statement holds for the interpreter's world, the tokens it holds and the bookkeeping computed
   alongside *)
Theorem executed_histories_stream ops id hk :
  connects_fresh [] ops ->
  let w := fst (run_srv_ops BUF id 0 hk world0 ops) in
  stream_statement w (ytoks (w_tokens w)) (ghost_ops id 0 hk world0 ghost0 ops).
Proof.
  intros Hf. cbn zeta.
  destruct (run_srv_ops_RS ops id 0 hk world0 ghost0 RS_world0 (connects_fresh_ops ops ghost0 id 0 hk world0 Hf)) as (beta & log & S).
  eapply SI_statement; eauto.
Qed.

End RS.
