(* ConnImpl refines ConnSpec: one call of try_read on a chunk does what the specification's
   runT does on (carry ++ chunk) -- same deliveries, same interim responses, same error --
   never reaches a modelled panic site and never runs out of loop fuel. *)
From MH Require Export model.ConnImpl proofs.Spec_proofs.

Lemma sub_in buf a b : (a <= b <= length buf)%nat -> sub buf a b = Some (firstn (b - a) (skipn a buf)).
Proof.
  intros H. unfold sub. rewrite (proj2 (andb_true_iff _ _)); [reflexivity|]. split; apply Nat.leb_le; lia.
Qed.

Lemma sub_suffix buf start : (start <= length buf)%nat -> sub buf start (length buf) = Some (skipn start buf).
Proof. intros H. rewrite sub_in by lia. f_equal. apply firstn_all2. rewrite skipn_length. lia. Qed.

Lemma sub_prefix_of_suffix buf start i :
  (start + i <= length buf)%nat -> sub buf start (start + i) = Some (firstn i (skipn start buf)).
Proof. intros H. rewrite sub_in by lia. do 2 f_equal. lia. Qed.

Lemma skipn_add {A} (a b : nat) (l : list A) : skipn (a + b) l = skipn b (skipn a l).
Proof.
  revert l; induction a as [|a IH]; intros l; [reflexivity|].
  destruct l as [|x l]; cbn [Nat.add skipn]; [rewrite skipn_nil; reflexivity|apply IH].
Qed.

Fixpoint has_request (outs : list out) : bool :=
  match outs with
  | [] => false
  | ORequest _ _ _ :: _ => true
  | OContinue _ :: r => has_request r
  end.

(* the requests of a run, the pending descriptors going to the first one *)
Fixpoint reqs_of (outs : list out) (files : list nat) : list request :=
  match outs with
  | [] => []
  | ORequest rl h b :: r => mkReq rl h b files :: reqs_of r []
  | OContinue _ :: r => reqs_of r files
  end.

Fixpoint conts_of (outs : list out) : list response :=
  match outs with
  | [] => []
  | ORequest _ _ _ :: r => conts_of r
  | OContinue v :: r => response_new v Continue :: conts_of r
  end.

Definition files_after (outs : list out) (files : list nat) : list nat :=
  if has_request outs then [] else files.

Lemma reqs_of_app a b files : reqs_of (a ++ b) files = reqs_of a files ++ reqs_of b (files_after a files).
Proof.
  revert files; induction a as [|o a IH]; intros files; [reflexivity|].
  destruct o as [rl h body|v]; cbn [app reqs_of].
  - rewrite IH. unfold files_after. cbn [has_request]. destruct (has_request a); reflexivity.
  - rewrite IH. reflexivity.
Qed.

Lemma conts_of_app a b : conts_of (a ++ b) = conts_of a ++ conts_of b.
Proof. induction a as [|o a IH]; [reflexivity|]. destruct o; cbn; rewrite IH; reflexivity. Qed.

Lemma has_request_app a b : has_request (a ++ b) = has_request a || has_request b.
Proof. induction a as [|o a IH]; [reflexivity|]. destruct o; cbn; auto. Qed.

Lemma files_after_app a b files : files_after (a ++ b) files = files_after b (files_after a files).
Proof.
  unfold files_after. rewrite has_request_app. destruct (has_request a), (has_request b); reflexivity.
Qed.

(* what one call may change outside the parser fields *)
Record Post (c c' : conn) (outs : list out) : Prop := {
  post_parsed : c_parsed c' = c_parsed c ++ reqs_of outs (c_files c);
  post_rq : c_rq c' = c_rq c ++ conts_of outs;
  post_files : c_files c' = files_after outs (c_files c);
  post_pmax : c_pmax c' = c_pmax c;
  post_rbuf : c_rbuf c' = c_rbuf c;
}.

Lemma Post_refl c : Post c c [].
Proof. constructor; cbn; rewrite ?app_nil_r; reflexivity. Qed.

Lemma Post_trans c1 c2 c3 o1 o2 : Post c1 c2 o1 -> Post c2 c3 o2 -> Post c1 c3 (o1 ++ o2).
Proof.
  intros [A1 A2 A3 A4 A5] [B1 B2 B3 B4 B5]. constructor.
  - rewrite B1, A1, A3, reqs_of_app, app_assoc. reflexivity.
  - rewrite B2, A2, conts_of_app, app_assoc. reflexivity.
  - rewrite B3, A3, files_after_app. reflexivity.
  - congruence.
  - congruence.
Qed.

(* the parser fields of the connection spell the phase; the window is related in StepSim and CInv *)
Inductive Good : conn -> phase -> Prop :=
| GLine c : c_state c = WaitingForRequestLine -> c_body_vec c = [] -> Good c PLine
| GHdr c rl h : c_state c = WaitingForHeaders -> c_pending c = Some (mkReq rl h None []) ->
    c_body_vec c = [] -> Good c (PHdr rl h)
| GBody c rl h acc lft : c_state c = WaitingForBody -> c_pending c = Some (mkReq rl h (Some []) []) ->
    c_body_vec c = acc -> c_body_left c = lft ->
    lenN acc + lft = h_content_length h -> 1 <= lft -> Good c (PBody rl h acc lft).

(* the parse functions on a cursor inside a window that fits the buffer, in terms of the
   unparsed bytes w = skipn start buf: the checks pass and the slices are prefixes of w *)
Section Window.
Variable BUF : nat.
Variables (c : conn) (buf : bytes) (start : nat).
Hypothesis Hs : (start <= length buf)%nat.
Hypothesis Hb : (length buf <= BUF)%nat.
Let w := skipn start buf.

Let Hw : length w = (length buf - start)%nat.
Proof. apply skipn_length. Qed.
Let E1 : (length buf <? start)%nat = false.
Proof. apply Nat.ltb_ge. exact Hs. Qed.
Let E2 : (BUF <? length buf)%nat = false.
Proof. apply Nat.ltb_ge. exact Hb. Qed.

Lemma shift_buffer_left_eq :
  shift_buffer_left BUF c buf start =
  PStop (upd_parse c (c_state c) w (c_pending c) (c_body_vec c) (c_body_left c)).
Proof. unfold shift_buffer_left. rewrite E2, E1. reflexivity. Qed.

(* the two spellings of "the window is full and nothing of it is consumed" *)
Lemma full_window_test : ((length buf =? BUF) && (start =? 0))%nat = (BUF <=? length w)%nat.
Proof.
  rewrite Hw. destruct (Nat.eqb_spec (length buf) BUF), (Nat.eqb_spec start 0),
    (Nat.leb_spec BUF (length buf - start)); lia.
Qed.

Lemma parse_request_line_eq :
  parse_request_line BUF c buf start =
  match find_crlf w with
  | Some i =>
      match parse_reqline (firstn i w) with
      | Ok rl => PStep (upd_parse c WaitingForHeaders (c_win c) (Some (mkReq rl headers_default None []))
                                  (c_body_vec c) (c_body_left c)) (start + (i + 2))
      | Err err => PErr c err
      end
  | None => if (BUF <=? length w)%nat then PErr c InvalidRequest
            else PStop (upd_parse c (c_state c) w (c_pending c) (c_body_vec c) (c_body_left c))
  end.
Proof.
  unfold parse_request_line. rewrite E1, E2, sub_suffix by exact Hs. fold w.
  destruct (find_crlf w) as [i|] eqn:F.
  - pose proof (find_crlf_bound _ _ F) as Hi.
    rewrite sub_prefix_of_suffix, Nat.add_assoc by lia. reflexivity.
  - rewrite full_window_test, shift_buffer_left_eq. reflexivity.
Qed.

Lemma parse_headers_eq r : c_pending c = Some r ->
  parse_headers BUF c buf start =
  match find_crlf w with
  | Some O =>
      let cl := h_content_length (r_headers r) in
      if cl =? 0 then
        PStep (upd_parse c RequestReady (c_win c) (Some r) (c_body_vec c) (c_body_left c)) (start + 2)
      else if c_pmax c <? cl then PErr c (SizeLimitExceeded (c_pmax c) cl)
      else PStep (mkConn WaitingForBody (c_win c) (Some (with_body r (Some []))) (c_body_vec c) cl
                         (c_parsed c)
                         (if h_expect (r_headers r)
                          then c_rq c ++ [response_new (rl_version (r_line r)) Continue] else c_rq c)
                         (c_rbuf c) (c_files c) (c_pmax c)) (start + 2)
  | Some i =>
      match parse_header_line (r_headers r) (firstn i w) with
      | Ok h' => PStep (upd_parse c (c_state c) (c_win c) (Some (with_headers r h'))
                                  (c_body_vec c) (c_body_left c)) (start + (i + 2))
      | Err (HeaderError (UnsupportedValue _ _)) => PStep c (start + (i + 2))
      | Err err => PErr c err
      end
  | None => if (BUF <=? length w)%nat then PErr c (HeaderError (HSizeLimitExceeded buf))
            else PStop (upd_parse c (c_state c) w (c_pending c) (c_body_vec c) (c_body_left c))
  end.
Proof.
  intros Hp. unfold parse_headers. rewrite E2, E1, sub_suffix by exact Hs. fold w.
  destruct (find_crlf w) as [[|i]|] eqn:F.
  - rewrite Hp. reflexivity.
  - pose proof (find_crlf_bound _ _ F) as Hi.
    rewrite Hp, (Nat.add_comm (S i) start), sub_prefix_of_suffix, Nat.add_assoc by lia. reflexivity.
  - rewrite andb_comm, full_window_test, shift_buffer_left_eq. reflexivity.
Qed.

(* [lenN w] is what the cast to u32 leaves of the window length; when the rest of the body is in the
   window it completes the declared length exactly, so the drain is in range and leaves nothing *)
Lemma parse_body_eq r : N.of_nat BUF < U32_LIMIT -> c_pending c = Some r ->
  lenN (c_body_vec c) + c_body_left c = h_content_length (r_headers r) ->
  parse_body BUF c buf start =
  if lenN w <? c_body_left c then
    PStop (upd_parse c (c_state c) [] (c_pending c) (c_body_vec c ++ w) (c_body_left c - lenN w))
  else
    PStep (upd_parse c RequestReady (c_win c)
             (Some (with_body r (Some (c_body_vec c ++ firstn (N.to_nat (c_body_left c)) w)))) [] 0)
          (start + N.to_nat (c_body_left c)).
Proof.
  intros BUF_u32 Hp Hsum. unfold parse_body. rewrite E2, E1.
  replace (N.of_nat (length buf - start) mod U32_LIMIT) with (lenN w)
    by (unfold lenN; rewrite Hw; symmetry; apply N.mod_small; lia).
  destruct (N.ltb_spec (lenN w) (c_body_left c)) as [Lt|Le].
  - rewrite sub_suffix by exact Hs. reflexivity.
  - unfold lenN in Le, Hsum. rewrite sub_prefix_of_suffix, Hp by lia. cbv zeta.
    set (bv := c_body_vec c ++ firstn (N.to_nat (c_body_left c)) w).
    assert (Hbv : length bv = N.to_nat (h_content_length (r_headers r)))
      by (unfold bv; rewrite app_length, firstn_length; lia).
    rewrite <- Hbv, Nat.ltb_irrefl, skipn_all, firstn_all. reflexivity.
Qed.

End Window.

Section Sim.
Variable BUF : nat.
Hypothesis BUF_min : (2 <= BUF)%nat.
Hypothesis BUF_u32 : N.of_nat BUF < U32_LIMIT.

Notation step := (step BUF).
Notation runT := (runT BUF).
Notation read_loop := (read_loop BUF).

(* one iteration of the loop: the parse function of the state, or the queueing of a ready request *)
Definition dispatch (f : nat) (buf : bytes) (p : pres) : lres :=
  match p with
  | PStep c' start' => read_loop f c' buf start'
  | PStop c' => LOk c'
  | PErr c' err => LErr c' err
  | PPanic s => LPanic s
  end.

Definition parse_of (c : conn) : bytes -> nat -> pres :=
  match c_state c with
  | WaitingForRequestLine => parse_request_line BUF c
  | WaitingForHeaders => parse_headers BUF c
  | _ => parse_body BUF c
  end.

Lemma read_loop_parse f c buf start : c_state c <> RequestReady ->
  read_loop (S f) c buf start = dispatch f buf (parse_of c buf start).
Proof. intros H. unfold parse_of. cbn [ConnImpl.read_loop]. destruct (c_state c); try reflexivity. congruence. Qed.

Definition deliver (c : conn) (r : request) : conn :=
  mkConn WaitingForRequestLine (c_win c) None (c_body_vec c) 0
         (c_parsed c ++ [with_files r (c_files c)]) (c_rq c) (c_rbuf c) [] (c_pmax c).

Lemma read_loop_ready c r buf : c_state c = RequestReady -> c_pending c = Some r ->
  forall f start, read_loop (S f) c buf start = read_loop f (deliver c r) buf start.
Proof. intros Hs Hp f start. cbn [ConnImpl.read_loop]. rewrite Hs, Hp. reflexivity. Qed.

(* one step of the specification = one or two iterations of the implementation's loop; a completed
   element of d bytes moves the cursor by d *)
Definition StepSim (c : conn) (buf : bytes) (start : nat) (ph : phase) : Prop :=
  let w := skipn start buf in
  match step (c_pmax c) ph w with
  | SDone ph' rest o =>
      exists c' d k, (1 <= k <= 2)%nat /\
        (forall f, read_loop (k + f) c buf start = read_loop f c' buf (start + d)) /\
        Good c' ph' /\ rest = skipn d w /\ (1 <= d <= length w)%nat /\ Post c c' o
  | SMore ph' carry =>
      exists c', (forall f, read_loop (S f) c buf start = LOk c') /\
        Good c' ph' /\ c_win c' = carry /\ Post c c' []
  | SErr e =>
      exists c', (forall f, read_loop (S f) c buf start = LErr c' e) /\ Post c c' []
  end.

Lemma take_line_window w : (length w <= BUF)%nat ->
  take_line BUF w = match find_crlf w with
                    | Some i => LLine (firstn i w) (skipn (i + 2) w)
                    | None => if (BUF <=? length w)%nat then LTooLong else LMore
                    end.
Proof. intros H. unfold take_line. rewrite firstn_all2 by exact H. reflexivity. Qed.

Lemma upd_parse_post c st win pend bv bl : Post c (upd_parse c st win pend bv bl) [].
Proof. constructor; cbn; rewrite ?app_nil_r; reflexivity. Qed.

Lemma sim_line c buf start :
  Good c PLine -> (start <= length buf)%nat -> (length buf <= BUF)%nat -> StepSim c buf start PLine.
Proof.
  intros G Hs Hb. inversion G as [c0 Hst Hbv| |]; subst. unfold StepSim.
  set (w := skipn start buf). cbn [ConnSpec.step].
  rewrite take_line_window by (unfold w; rewrite skipn_length; lia).
  pose proof (fun f => read_loop_parse f c buf start ltac:(congruence)) as RL. unfold parse_of in RL.
  rewrite Hst, (parse_request_line_eq BUF c buf start Hs Hb) in RL. fold w in RL.
  destruct (find_crlf w) as [i|] eqn:F.
  - pose proof (find_crlf_bound _ _ F) as Hi.
    destruct (parse_reqline (firstn i w)) as [rl|err].
    + eexists _, (i + 2)%nat, 1%nat. split; [lia|]. split; [exact RL|].
      split; [apply GHdr; cbn; auto|]. split; [reflexivity|]. split; [lia|apply upd_parse_post].
    + exists c. split; [exact RL|apply Post_refl].
  - destruct (BUF <=? length w)%nat.
    + exists c. split; [exact RL|apply Post_refl].
    + eexists. split; [exact RL|]. split; [apply GLine; cbn; auto|]. split; [reflexivity|apply upd_parse_post].
Qed.

Lemma sim_hdr c buf start rl h :
  Good c (PHdr rl h) -> (start <= length buf)%nat -> (length buf <= BUF)%nat -> StepSim c buf start (PHdr rl h).
Proof.
  intros G Hs Hb. inversion G as [|c0 rl0 h0 Hst Hpend Hbv|]; subst. unfold StepSim.
  set (w := skipn start buf).
  assert (Hw : length w = (length buf - start)%nat) by apply skipn_length.
  cbn [ConnSpec.step]. rewrite take_line_window by lia.
  pose proof (fun f => read_loop_parse f c buf start ltac:(congruence)) as RL. unfold parse_of in RL.
  rewrite Hst, (parse_headers_eq BUF c buf start Hs Hb _ Hpend) in RL. fold w in RL. cbn [r_headers r_line] in RL.
  destruct (find_crlf w) as [[|i]|] eqn:F.
  - (* the blank line *)
    pose proof (find_crlf_bound _ _ F) as Hi. cbn [firstn].
    destruct (h_content_length h =? 0) eqn:Z; [|destruct (c_pmax c <? h_content_length h)].
    + (* no body: the request is ready; a second iteration queues it *)
      eexists _, 2%nat, 2%nat. split; [lia|].
      split; [intros f; eapply eq_trans; [exact (RL (S f))|]; cbn [dispatch]; apply read_loop_ready; reflexivity|].
      split; [apply GLine; cbn; auto|]. split; [reflexivity|]. split; [lia|].
      constructor; cbn; rewrite ?app_nil_r; reflexivity.
    + exists c. split; [exact RL|apply Post_refl].
    + eexists _, 2%nat, 1%nat. split; [lia|]. split; [exact RL|].
      split; [apply GBody; cbn; auto; apply N.eqb_neq in Z; lia|]. split; [reflexivity|]. split; [lia|].
      constructor; cbn; try reflexivity;
        destruct (h_expect h); cbn; rewrite ?app_nil_r; reflexivity.
  - (* a header line: it is not empty, and the loop ignores what parse_header_tolerant ignores *)
    pose proof (find_crlf_bound _ _ F) as Hi.
    destruct (firstn (S i) w) as [|x l'] eqn:Hl;
      [apply (f_equal (@length N)) in Hl; rewrite firstn_length in Hl; cbn [length] in Hl; lia|].
    unfold parse_header_tolerant.
    destruct (parse_header_line h (x :: l')) as [h'|err].
    + eexists _, (S i + 2)%nat, 1%nat. split; [lia|]. split; [exact RL|].
      split; [apply GHdr; cbn; auto|]. split; [reflexivity|]. split; [lia|apply upd_parse_post].
    + destruct err as [|[]| | | | | | | |]; try (exists c; split; [exact RL|apply Post_refl]).
      exists c, (S i + 2)%nat, 1%nat. split; [lia|]. split; [exact RL|].
      split; [exact G|]. split; [reflexivity|]. split; [lia|apply Post_refl].
  - (* no complete line in the window *)
    destruct (BUF <=? length w)%nat eqn:E.
    + (* then the window is the whole buffer *)
      apply Nat.leb_le in E. assert (start = 0%nat) by lia. subst start.
      change w with buf. rewrite firstn_all2 by lia.
      exists c. split; [exact RL|apply Post_refl].
    + eexists. split; [exact RL|]. split; [apply GHdr; cbn; auto|]. split; [reflexivity|apply upd_parse_post].
Qed.

Lemma sim_body c buf start rl h acc lft :
  Good c (PBody rl h acc lft) -> (start <= length buf)%nat -> (length buf <= BUF)%nat ->
  StepSim c buf start (PBody rl h acc lft).
Proof.
  intros G Hs Hb. inversion G as [| |c0 rl0 h0 acc0 lft0 Hst Hpend Hbv Hleft Hsum Hpos]; subst.
  unfold StepSim. set (w := skipn start buf). cbn [ConnSpec.step].
  pose proof (fun f => read_loop_parse f c buf start ltac:(congruence)) as RL. unfold parse_of in RL.
  rewrite Hst, (parse_body_eq BUF c buf start Hs Hb _ BUF_u32 Hpend Hsum) in RL. fold w in RL.
  rewrite N.ltb_antisym in RL.
  destruct (N.leb_spec (c_body_left c) (lenN w)) as [Le|Lt]; cbn [negb] in RL.
  - unfold lenN in Le.
    eexists _, (N.to_nat (c_body_left c)), 2%nat. split; [lia|].
    split; [intros f; eapply eq_trans; [exact (RL (S f))|]; cbn [dispatch]; apply read_loop_ready; reflexivity|].
    split; [apply GLine; cbn; auto|]. split; [reflexivity|]. split; [lia|].
    constructor; cbn; rewrite ?app_nil_r; reflexivity.
  - eexists. split; [exact RL|].
    split; [apply GBody; cbn; auto; rewrite ?lenN_app; lia|]. split; [reflexivity|apply upd_parse_post].
Qed.

Lemma step_sim c buf start ph :
  Good c ph -> (start <= length buf)%nat -> (length buf <= BUF)%nat -> StepSim c buf start ph.
Proof.
  intros G. destruct ph; [apply sim_line|apply sim_hdr|apply sim_body]; exact G.
Qed.

Lemma loop_sim : forall n fuel c buf start ph,
  (length (skipn start buf) < n)%nat -> (2 * length (skipn start buf) + 2 <= fuel)%nat ->
  Good c ph -> (start <= length buf)%nat -> (length buf <= BUF)%nat ->
  match runT (c_pmax c) ph (skipn start buf) [] with
  | RMore ph' carry outs =>
      exists c', read_loop fuel c buf start = LOk c' /\ Good c' ph' /\ c_win c' = carry /\ Post c c' outs
  | RErr outs e => exists c', read_loop fuel c buf start = LErr c' e /\ Post c c' outs
  | ROutOfFuel => False
  end.
Proof.
  induction n as [|n IH]; intros fuel c buf start ph Hn Hf G Hs Hb; [lia|].
  pose proof (step_sim c buf start ph G Hs Hb) as SS. unfold StepSim in SS.
  rewrite runT_unfold.
  destruct (step (c_pmax c) ph (skipn start buf)) as [ph' rest o|ph' carry|e] eqn:St.
  - destruct SS as (c' & d & k & Hk & Hrl & G' & -> & Hd & P).
    assert (Hpm : c_pmax c' = c_pmax c) by apply P.
    rewrite runT_acc, <- skipn_add, <- Hpm. rewrite skipn_length in Hn, Hf, Hd.
    replace fuel with (k + (fuel - k))%nat by lia. rewrite Hrl.
    pose proof (IH (fuel - k)%nat c' buf (start + d)%nat ph') as IH'. rewrite skipn_length in IH'.
    specialize (IH' ltac:(lia) ltac:(lia) G' ltac:(lia) Hb).
    destruct (runT (c_pmax c') ph' (skipn (start + d) buf) []) as [ph2 carry2 o2|o2 e2|].
    + destruct IH' as (c2 & R & G2 & W2 & P2). exists c2.
      split; [exact R|split; [exact G2|split; [exact W2|]]]. eapply Post_trans; eauto.
    + destruct IH' as (c2 & R & P2). exists c2. split; [exact R|]. eapply Post_trans; eauto.
    + exact IH'.
  - destruct SS as (c' & Hrl & G' & W & P). exists c'.
    destruct fuel as [|f]; [lia|]. rewrite Hrl. auto.
  - destruct SS as (c' & Hrl & P). exists c'. destruct fuel as [|f]; [lia|]. rewrite Hrl. auto.
Qed.

(* the invariant between calls: the parser fields abstract to a phase, and the window holds no
   complete element (it is "stuck") *)
Definition CInv (c : conn) (ph : phase) : Prop :=
  Good c ph /\ step (c_pmax c) ph (c_win c) = SMore ph (c_win c).

Lemma stuck_short pm ph w : stuck BUF pm ph w -> (length w < BUF)%nat.
Proof.
  intros H. apply (stuck_iff BUF pm) in H. destruct ph; try (apply take_line_more; exact H).
  destruct H as [-> _]. cbn [length]. lia.
Qed.

Lemma CInv_room c ph : CInv c ph -> (BUF <=? length (c_win c))%nat = false.
Proof. intros [_ St]. apply Nat.leb_gt. eapply stuck_short. exact St. Qed.

Lemma Good_parser_fields c c' ph :
  Good c ph -> c_state c' = c_state c -> c_pending c' = c_pending c -> c_body_vec c' = c_body_vec c ->
  c_body_left c' = c_body_left c -> Good c' ph.
Proof.
  intros G E1 E2 E3 E4. inversion G; subst.
  - apply GLine; congruence.
  - apply GHdr; congruence.
  - apply GBody; congruence.
Qed.

Lemma CInv_add_files c ph fds : CInv c ph -> CInv (add_files c fds) ph.
Proof. intros [G St]. split; [eapply Good_parser_fields; eauto|exact St]. Qed.

Lemma CInv_PLine c :
  c_state c = WaitingForRequestLine -> c_body_vec c = [] -> c_win c = [] -> CInv c PLine.
Proof. intros H1 H2 H3. split; [apply GLine; assumption|]. rewrite H3. apply stuck_PLine_nil. lia. Qed.

Lemma CInv_new pm : CInv (set_payload_max_size conn_new pm) PLine.
Proof using BUF_min BUF_u32. apply CInv_PLine; reflexivity. Qed.

Lemma CInv_reset c : CInv (reset_parser c) PLine.
Proof. apply CInv_PLine; reflexivity. Qed.

(* the environment contract of one recvmsg: it returns at most as many bytes as there is room *)
Definition ev_ok (c : conn) (ev : read_ev) : Prop :=
  match ev with
  | RData bs _ => (length (c_win c) + length bs <= BUF)%nat
  | _ => True
  end.

Theorem try_read_data c ph bs fds :
  CInv c ph -> bs <> [] -> (length (c_win c) + length bs <= BUF)%nat ->
  match runT (c_pmax c) ph (c_win c ++ bs) [] with
  | RMore ph' carry outs =>
      exists c', try_read BUF c (RData bs fds) = (c', RdOk, true) /\ CInv c' ph' /\ c_win c' = carry
                 /\ Post (add_files c fds) c' outs
  | RErr outs e =>
      exists c1, try_read BUF c (RData bs fds) = (reset_parser c1, RdErr (ParseError e), true)
                 /\ Post (add_files c fds) c1 outs
  | ROutOfFuel => False
  end.
Proof.
  intros I Hne Hlen. unfold try_read. rewrite (CInv_room _ _ I).
  destruct bs as [|b bs']; [congruence|]. set (bs := b :: bs') in *. set (buf := c_win c ++ bs).
  assert (Hbuf : (length buf <= BUF)%nat) by (unfold buf; rewrite app_length; exact Hlen).
  pose proof (loop_sim (S (length buf)) (loop_fuel buf) (add_files c fds) buf 0 ph) as LS.
  cbn [skipn] in LS. change (c_pmax (add_files c fds)) with (c_pmax c) in LS.
  specialize (LS ltac:(lia) ltac:(unfold loop_fuel; lia) (proj1 (CInv_add_files _ _ fds I)) ltac:(lia) Hbuf).
  destruct (runT (c_pmax c) ph buf []) as [ph' carry outs|outs e|] eqn:R.
  - destruct LS as (c' & RL & G2 & W & P). exists c'. rewrite RL.
    split; [reflexivity|]. split; [|split; [exact W|exact P]]. split; [exact G2|].
    replace (c_pmax c') with (c_pmax c) by (symmetry; apply P). rewrite W.
    eapply runT_more_stuck. exact R.
  - destruct LS as (c1 & RL & P). exists c1. rewrite RL. auto.
  - exact LS.
Qed.

Definition data_of (ev : read_ev) : bytes := match ev with RData bs _ => bs | _ => [] end.

Definition fds_of (ev : read_ev) : list nat :=
  match ev with RData _ fds => fds | REof fds => fds | RFail _ => [] end.

(* try_read_data for every read result: a read that brings no data is the empty run from a stuck
   window, which only keeps the descriptors *)
Theorem try_read_ev c ph ev :
  CInv c ph -> ev_ok c ev ->
  match runT (c_pmax c) ph (c_win c ++ data_of ev) [] with
  | RMore ph' carry outs =>
      exists c' res, try_read BUF c ev = (c', res, true) /\ (forall s, res <> RdPanic s)
                     /\ (forall e, res <> RdErr (ParseError e)) /\ CInv c' ph' /\ c_win c' = carry
                     /\ Post (add_files c (fds_of ev)) c' outs
  | RErr outs e =>
      exists c1, try_read BUF c ev = (reset_parser c1, RdErr (ParseError e), true)
                 /\ Post (add_files c (fds_of ev)) c1 outs
  | ROutOfFuel => False
  end.
Proof.
  intros I Hok. destruct ev as [[|b bs] fds|fds|errno]; cbn [data_of fds_of].
  2: { pose proof (try_read_data c ph (b :: bs) fds I ltac:(discriminate) Hok) as D.
       destruct (runT (c_pmax c) ph (c_win c ++ b :: bs) []); [|exact D|exact D].
       destruct D as (c' & T & D). exists c', RdOk. split; [exact T|]. split; [discriminate|].
       split; [discriminate|exact D]. }
  all: rewrite app_nil_r, (stuck_runT BUF _ _ _ [] (proj2 I)); unfold try_read; rewrite (CInv_room _ _ I);
    eexists _, _; split; [reflexivity|]; split; [discriminate|]; split; [discriminate|].
  1, 2: auto using CInv_add_files, Post_refl.
  split; [exact I|split; [reflexivity|]]. constructor; cbn; rewrite ?app_nil_r; reflexivity.
Qed.

(* every call of try_read: no panic site, no fuel exhaustion, the invariant is kept *)
Theorem try_read_total c ph ev :
  CInv c ph -> ev_ok c ev ->
  exists c' res sys ph', try_read BUF c ev = (c', res, sys) /\ CInv c' ph' /\ (forall s, res <> RdPanic s)
    /\ sys = true /\ c_pmax c' = c_pmax c /\ c_rbuf c' = c_rbuf c.
Proof.
  intros I Hok. pose proof (try_read_ev c ph ev I Hok) as T.
  destruct (runT (c_pmax c) ph (c_win c ++ data_of ev) []) as [ph' carry outs|outs e|].
  - destruct T as (c' & res & T & Hp & _ & I' & _ & P). exists c', res, true, ph'.
    split; [exact T|]. split; [exact I'|]. split; [exact Hp|]. split; [reflexivity|]. split; apply P.
  - destruct T as (c1 & T & P). exists (reset_parser c1), (RdErr (ParseError e)), true, PLine.
    split; [exact T|]. split; [apply CInv_reset|]. split; [discriminate|]. split; [reflexivity|]. split; apply P.
  - destruct T.
Qed.

Definition core (r : request) : request_line * headers * option bytes := (r_line r, r_headers r, r_body r).

Fixpoint ocores (outs : list out) : list (request_line * headers * option bytes) :=
  match outs with
  | [] => []
  | ORequest rl h b :: r => (rl, h, b) :: ocores r
  | OContinue _ :: r => ocores r
  end.

Lemma cores_reqs_of outs files : map core (reqs_of outs files) = ocores outs.
Proof.
  revert files; induction outs as [|o outs IH]; intros files; [reflexivity|].
  destruct o; cbn; rewrite ?IH; reflexivity.
Qed.

Lemma ocores_app a b : ocores (a ++ b) = ocores a ++ ocores b.
Proof. induction a as [|o a IH]; [reflexivity|]. destruct o; cbn; rewrite IH; reflexivity. Qed.

(* run a list of read events; stop at the first parse error *)
Fixpoint reads (c : conn) (evs : list read_ev) : conn * option req_err :=
  match evs with
  | [] => (c, None)
  | ev :: r =>
    let '(c', res, _) := try_read BUF c ev in
    match res with
    | RdErr (ParseError e) => (c', Some e)
    | _ => reads c' r
    end
  end.

Fixpoint evs_ok (c : conn) (evs : list read_ev) : Prop :=
  match evs with
  | [] => True
  | ev :: r => ev_ok c ev /\ evs_ok (fst (fst (try_read BUF c ev))) r
  end.

Definition chunks (evs : list read_ev) : list bytes :=
  flat_map (fun ev => match ev with RData (b :: bs) _ => [b :: bs] | _ => [] end) evs.

Lemma feed_acc pm : forall ks ph carry acc,
  feed BUF pm ph carry acc ks =
  match feed BUF pm ph carry [] ks with
  | RMore ph' c o => RMore ph' c (acc ++ o)
  | RErr o e => RErr (acc ++ o) e
  | ROutOfFuel => ROutOfFuel
  end.
Proof.
  induction ks as [|k ks IH]; intros ph carry acc; cbn [feed].
  - rewrite app_nil_r. reflexivity.
  - rewrite (runT_acc BUF pm ph (carry ++ k) acc).
    destruct (runT pm ph (carry ++ k) []) as [ph' c o| |]; try reflexivity.
    rewrite (IH ph' c (acc ++ o)). rewrite (IH ph' c o).
    destruct (feed BUF pm ph' c [] ks); rewrite ?app_assoc; reflexivity.
Qed.

Lemma reads_cons c ev evs c' res sys :
  try_read BUF c ev = (c', res, sys) -> (forall e, res <> RdErr (ParseError e)) ->
  reads c (ev :: evs) = reads c' evs.
Proof.
  intros T H. cbn [reads]. rewrite T. destruct res as [|[]|]; try reflexivity.
  exfalso. eapply H. reflexivity.
Qed.

Definition chunk_of (d : bytes) : list bytes := match d with [] => [] | _ => [d] end.

Lemma chunks_cons ev evs : chunks (ev :: evs) = chunk_of (data_of ev) ++ chunks evs.
Proof. destruct ev as [[|b bs] fds|fds|errno]; reflexivity. Qed.

(* feeding the data of one read; none is the empty run from a stuck window *)
Lemma feed_app_data pm ph carry d ks : stuck BUF pm ph carry ->
  feed BUF pm ph carry [] (chunk_of d ++ ks) =
  match runT pm ph (carry ++ d) [] with
  | RMore ph' c o => feed BUF pm ph' c o ks
  | r => r
  end.
Proof.
  intros St. destruct d; [|reflexivity]. rewrite app_nil_r, (stuck_runT BUF _ _ _ [] St). reflexivity.
Qed.

(* what a sequence of reads delivers is what the specification delivers on the same chunks *)
Theorem reads_refine : forall evs c ph,
  CInv c ph -> evs_ok c evs ->
  match feed BUF (c_pmax c) ph (c_win c) [] (chunks evs) with
  | RMore ph' carry outs =>
      snd (reads c evs) = None /\ CInv (fst (reads c evs)) ph' /\ c_win (fst (reads c evs)) = carry
      /\ map core (c_parsed (fst (reads c evs))) = map core (c_parsed c) ++ ocores outs
      /\ c_rq (fst (reads c evs)) = c_rq c ++ conts_of outs
      /\ c_pmax (fst (reads c evs)) = c_pmax c
  | RErr outs e =>
      snd (reads c evs) = Some e
      /\ map core (c_parsed (fst (reads c evs))) = map core (c_parsed c) ++ ocores outs
      /\ c_rq (fst (reads c evs)) = c_rq c ++ conts_of outs
  | ROutOfFuel => False
  end.
Proof.
  induction evs as [|ev evs IH]; intros c ph I Hok.
  - cbn. rewrite !app_nil_r. auto 6.
  - destruct Hok as [Hev Hrest]. pose proof (try_read_ev c ph ev I Hev) as T.
    rewrite chunks_cons, feed_app_data by exact (proj2 I).
    destruct (runT (c_pmax c) ph (c_win c ++ data_of ev) []) as [ph' carry outs|outs e|].
    + destruct T as (c' & res & T & _ & Hpe & I' & W & P).
      rewrite (reads_cons _ _ evs _ _ _ T Hpe).
      rewrite T in Hrest. cbn [fst] in Hrest.
      assert (Hpm : c_pmax c' = c_pmax c) by apply P.
      specialize (IH c' ph' I' Hrest). rewrite Hpm, W in IH. rewrite feed_acc.
      assert (Pp : map core (c_parsed c') = map core (c_parsed c) ++ ocores outs).
      { destruct P as [A _ _ _ _]. rewrite A, map_app, cores_reqs_of. reflexivity. }
      assert (Pq : c_rq c' = c_rq c ++ conts_of outs) by apply P.
      destruct (feed BUF (c_pmax c) ph' carry [] (chunks evs)) as [ph2 c2 o2|o2 e2|].
      * destruct IH as (A1 & A2 & A3 & A4 & A5 & A6).
        split; [exact A1|]. split; [exact A2|]. split; [exact A3|].
        split; [rewrite A4, Pp, ocores_app, app_assoc; reflexivity|].
        split; [rewrite A5, Pq, conts_of_app, app_assoc; reflexivity|congruence].
      * destruct IH as (A1 & A4 & A5).
        split; [exact A1|].
        split; [rewrite A4, Pp, ocores_app, app_assoc; reflexivity|].
        rewrite A5, Pq, conts_of_app, app_assoc; reflexivity.
      * exact IH.
    + destruct T as (c1 & T & P). cbn [reads]. rewrite T. cbn [fst snd].
      split; [reflexivity|].
      destruct P as [A1 A2 _ _ _]. cbn [reset_parser c_parsed c_rq].
      split; [rewrite A1, map_app, cores_reqs_of; reflexivity|exact A2].
    + exact T.
Qed.

Definition new_conn (pm : N) : conn := set_payload_max_size conn_new pm.

Definition observe (r : conn * option req_err) :=
  (map core (c_parsed (fst r)), c_rq (fst r), snd r).

Definition spec_observe (r : rres) :=
  match r with
  | RMore _ _ outs => (ocores outs, conts_of outs, @None req_err)
  | RErr outs e => (ocores outs, conts_of outs, Some e)
  | ROutOfFuel => ([], [], None)
  end.

Theorem reads_whole_stream pm evs :
  evs_ok (new_conn pm) evs ->
  observe (reads (new_conn pm) evs) = spec_observe (parse_stream BUF pm (concat (chunks evs))).
Proof.
  intros Hok. pose proof (reads_refine evs (new_conn pm) PLine (CInv_new pm) Hok) as R.
  change (c_pmax (new_conn pm)) with pm in R. change (c_win (new_conn pm)) with (@nil N) in R.
  rewrite (feed_whole_stream BUF pm (chunks evs)) in R by lia.
  unfold observe, spec_observe.
  destruct (parse_stream BUF pm (concat (chunks evs))) as [ph' carry outs|outs e|].
  - destruct R as (A1 & _ & _ & A4 & A5 & _). rewrite A1, A4, A5. reflexivity.
  - destruct R as (A1 & A4 & A5). rewrite A1, A4, A5. reflexivity.
  - destruct R.
Qed.

Theorem reads_schedule_independent pm evs1 evs2 :
  evs_ok (new_conn pm) evs1 -> evs_ok (new_conn pm) evs2 ->
  concat (chunks evs1) = concat (chunks evs2) ->
  observe (reads (new_conn pm) evs1) = observe (reads (new_conn pm) evs2).
Proof. intros H1 H2 E. rewrite !reads_whole_stream by assumption. rewrite E. reflexivity. Qed.

(* a failed read (would-block, interrupted, ...) leaves the connection as it was *)
Lemma try_read_fail c ph errno : CInv c ph -> try_read BUF c (RFail errno) = (c, RdErr (StreamReadError errno), true).
Proof using BUF_min BUF_u32. intros I. unfold try_read. rewrite (CInv_room _ _ I). reflexivity. Qed.

Definition parser_view (c : conn) :=
  (c_state c, c_win c, c_pending c, c_body_vec c, c_body_left c, c_files c).

Lemma parse_error_form c ev c' e sys :
  try_read BUF c ev = (c', RdErr (ParseError e), sys) -> exists c1, c' = reset_parser c1.
Proof.
  unfold try_read. destruct (BUF <=? length (c_win c))%nat.
  - intros H; inversion H; eauto.
  - destruct ev as [bs fds|fds|errno]; try (intros H; inversion H; fail).
    destruct bs as [|b bs']; [intros H; inversion H|].
    destruct (ConnImpl.read_loop BUF _ _ _ _); intros H; inversion H; eauto.
Qed.

Theorem parse_error_resets c ev c' e sys :
  try_read BUF c ev = (c', RdErr (ParseError e), sys) -> parser_view c' = parser_view (new_conn (c_pmax c')).
Proof. intros H. apply parse_error_form in H. destruct H as [c1 ->]. reflexivity. Qed.

Theorem after_error_as_new c ev c' e sys evs :
  try_read BUF c ev = (c', RdErr (ParseError e), sys) ->
  evs_ok c' evs -> evs_ok (new_conn (c_pmax c')) evs ->
  exists outs,
    map core (c_parsed (fst (reads c' evs))) = map core (c_parsed c') ++ outs /\
    map core (c_parsed (fst (reads (new_conn (c_pmax c')) evs))) = outs /\
    (exists rq, c_rq (fst (reads c' evs)) = c_rq c' ++ rq /\ c_rq (fst (reads (new_conn (c_pmax c')) evs)) = rq) /\
    snd (reads c' evs) = snd (reads (new_conn (c_pmax c')) evs).
Proof.
  intros T H1 H2. apply parse_error_form in T. destruct T as [c1 ->].
  pose proof (reads_refine evs (reset_parser c1) PLine (CInv_reset c1) H1) as R1.
  pose proof (reads_refine evs (new_conn (c_pmax (reset_parser c1))) PLine (CInv_new _) H2) as R2.
  change (c_win (reset_parser c1)) with (@nil N) in R1.
  change (c_win (new_conn (c_pmax (reset_parser c1)))) with (@nil N) in R2.
  change (c_pmax (new_conn (c_pmax (reset_parser c1)))) with (c_pmax (reset_parser c1)) in R2.
  destruct (feed BUF (c_pmax (reset_parser c1)) PLine [] [] (chunks evs)) as [ph' carry outs|outs e'|].
  - destruct R1 as (A1 & _ & _ & A4 & A5 & _). destruct R2 as (B1 & _ & _ & B4 & B5 & _).
    exists (ocores outs). split; [exact A4|]. split; [exact B4|]. split; [exists (conts_of outs); auto|congruence].
  - destruct R1 as (A1 & A4 & A5). destruct R2 as (B1 & B4 & B5).
    exists (ocores outs). split; [exact A4|]. split; [exact B4|]. split; [exists (conts_of outs); auto|congruence].
  - destruct R1.
Qed.

Lemma reqs_of_no_files outs : flat_map r_files (reqs_of outs []) = [].
Proof. induction outs as [|[] outs IH]; cbn; auto. Qed.

Lemma files_split outs fs : flat_map r_files (reqs_of outs fs) ++ files_after outs fs = fs.
Proof.
  revert fs; induction outs as [|[rl h b|v] outs IH]; intros fs; [reflexivity| |apply IH].
  cbn. rewrite reqs_of_no_files, !app_nil_r. reflexivity.
Qed.

(* without a parse error: descriptors delivered with requests ++ descriptors still held =
   descriptors received, in arrival order *)
Theorem files_conservation : forall evs c ph,
  CInv c ph -> evs_ok c evs -> snd (reads c evs) = None ->
  flat_map r_files (c_parsed (fst (reads c evs))) ++ c_files (fst (reads c evs))
  = flat_map r_files (c_parsed c) ++ c_files c ++ flat_map fds_of evs.
Proof.
  induction evs as [|ev evs IH]; intros c ph I Hok Hnone.
  - cbn. rewrite app_nil_r. reflexivity.
  - destruct Hok as [Hev Hrest]. pose proof (try_read_ev c ph ev I Hev) as T.
    destruct (runT (c_pmax c) ph (c_win c ++ data_of ev) []) as [ph' carry outs|outs e|].
    + destruct T as (c' & res & T & _ & Hpe & I' & _ & P).
      rewrite (reads_cons _ _ evs _ _ _ T Hpe) in *.
      rewrite T in Hrest. cbn [fst] in Hrest.
      rewrite (IH _ ph' I' Hrest Hnone).
      destruct P as [A1 _ A3 _ _]. rewrite A1, A3. cbn [add_files c_parsed c_files flat_map].
      rewrite flat_map_app, <- !app_assoc. f_equal.
      rewrite (app_assoc (flat_map r_files (reqs_of outs (c_files c ++ fds_of ev)))), files_split, <- !app_assoc.
      reflexivity.
    + destruct T as (c1 & T & P). cbn [reads] in Hnone. rewrite T in Hnone. discriminate.
    + destruct T.
Qed.

(* the descriptors pending at a read (held before ++ received with it) all go to the first
   request that read completes; later requests of the same read get none *)
Theorem files_attachment c ph bs fds :
  CInv c ph -> bs <> [] -> (length (c_win c) + length bs <= BUF)%nat ->
  forall c' sys, try_read BUF c (RData bs fds) = (c', RdOk, sys) ->
  exists outs, c_parsed c' = c_parsed c ++ reqs_of outs (c_files c ++ fds)
               /\ c_files c' = files_after outs (c_files c ++ fds).
Proof.
  intros I Hne Hlen c' sys T. pose proof (try_read_data c ph bs fds I Hne Hlen) as D.
  destruct (runT (c_pmax c) ph (c_win c ++ bs) []) as [ph' carry outs|outs e|].
  - destruct D as (c2 & T2 & _ & _ & P). rewrite T in T2. inversion T2; subst.
    exists outs. destruct P as [A1 _ A3 _ _]. auto.
  - destruct D as (c1 & T2 & _). rewrite T in T2. discriminate.
  - destruct D.
Qed.

End Sim.
