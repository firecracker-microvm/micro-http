(* C14, the converse: whenever the connection parser turns a byte slice into exactly one
   request with nothing left over, the one-shot parser accepts the slice with the same result --
   except for GET requests that declare a body, which only the one-shot parser rejects. *)
From MH Require Export proofs.Oneshot_proofs.

Lemma tolerant_ok_utf8 h l h' : parse_header_tolerant h l = Ok h' -> utf8_valid l = true.
Proof.
  unfold parse_header_tolerant, parse_header_line. destruct (utf8_valid l); [reflexivity|discriminate].
Qed.

Lemma fold_lines_utf8 : forall hs h hd, fold_lines h hs = Ok hd -> Forall (fun l => utf8_valid l = true) hs.
Proof.
  induction hs as [|l r IH]; intros h hd H; [constructor|]. cbn [fold_lines] in H.
  destruct (parse_header_tolerant h l) as [h1|e] eqn:P; [|discriminate].
  constructor; [eapply tolerant_ok_utf8; eauto|eapply IH; eauto].
Qed.

Lemma join_utf8 hs : Forall (fun l => utf8_valid l = true) hs -> utf8_valid (join_crlf hs) = true.
Proof.
  induction hs as [|x [|y r] IH]; intros H; [reflexivity| |]; inversion H; subst; [assumption|].
  cbn [join_crlf]. rewrite utf8_valid_concat by assumption. cbn [CRLF app utf8_valid]. apply IH. assumption.
Qed.

Section Conv.
Variable BUF : nat.
Hypothesis BUF_min : (2 <= BUF)%nat.
Variable L : N.

Lemma reqline_min_length rlb rl : parse_reqline rlb = Ok rl -> (reqline_min_len <= length rlb)%nat.
Proof.
  intros H. apply reqline_accept_iff in H. destruct H as (-> & Hne & _ & _).
  destruct (rl_uri rl) as [|u0 u']; [congruence|]. rewrite app_length. cbn [length]. rewrite app_length.
  destruct (rl_method rl), (rl_version rl); cbn; lia.
Qed.

(* bs is exactly one well-formed request, as the connection parser sees it *)
Definition exactly_one (bs : bytes) (rl : request_line) (hd : headers) (b : option bytes) : Prop :=
  exists rlb hs body,
    bs = rlb ++ CRLF ++ Grammar_proofs.with_crlf hs ++ CRLF ++ body /\
    parse_reqline rlb = Ok rl /\ line_ok BUF rlb /\
    Forall (fun l => l <> [] /\ line_ok BUF l) hs /\ fold_lines headers_default hs = Ok hd /\
    h_content_length hd <= L /\ lenN body = h_content_length hd /\ b = delivered_body hd body.

Theorem conn_implies_oneshot bs rl hd b :
  exactly_one bs rl hd b ->
  request_try_from bs None =
    if negb (h_content_length hd =? 0) && method_eqb (rl_method rl) Get then OErr InvalidRequest
    else OOk rl hd b.
Proof using All. (* C14 states it under the premise on BUF *)
  intros (rlb & hs & body & -> & Prl & [Hr1 _] & Hall & Hf & _ & Hlen & ->).
  rewrite (try_from_line _ _ (find_crlf_at_end _ Hr1 _)).
  rewrite (proj2 (Nat.ltb_ge _ _) (reqline_min_length _ _ Prl)), Prl.
  destruct hs as [|x r]; [injection Hf as <-; reflexivity|].
  set (hs := x :: r) in *. assert (Hne : hs <> []) by discriminate.
  assert (Hfree : Forall (fun l => l <> [] /\ find_crlf (l ++ [CR]) = None) hs).
  { eapply Forall_impl; [|exact Hall]. intros l (A1 & A2 & _). auto. }
  rewrite with_crlf_join, <- !app_assoc by exact Hne. change (CRLF ++ CRLF ++ body) with (CRLFCRLF ++ body).
  rewrite (try_from_headers_block rl _ body (cc_position hs body Hne Hfree)).
  (* the header block parses to the same headers *)
  unfold try_from_block, headers_try_from.
  rewrite (join_utf8 hs (fold_lines_utf8 _ _ _ Hf)), split_join, headers_fold_no_empty, Hf.
  - unfold delivered_body. rewrite Hlen, N.eqb_refl.
    destruct (h_content_length hd =? 0); [reflexivity|]. destruct (method_eqb (rl_method rl) Get); reflexivity.
  - intros Hin. rewrite Forall_forall in Hfree. destruct (Hfree [] Hin) as [A _]. congruence.
  - exact Hne.
  - eapply Forall_impl; [|exact Hfree]. intros l (_ & A2). exact A2.
Qed.

End Conv.
