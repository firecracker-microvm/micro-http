(* The executable server interpreter of run/Run.v (the very function the correspondence run executes
   against the real server) never leaves the world invariant: after ANY list of operations --
   connects, sends, closes, shutdowns, client reads, polls, responses, flushes, kill, limit changes --
   the world satisfies Inv with the tokens the interpreter holds.  So the premises of the server
   theorems (C07-C10, C18) hold at every step of every executed history, and the next poll can only
   block, yield, report the shutdown or overflow a u32 counter. *)
From MH Require Export proofs.CalmHistory_proofs run.Run.
From Coq Require Import Permutation.

Definition same_toks (a b : list tok) : Prop :=
  (forall t, In t a <-> In t b) /\ forall g, count_g g a = count_g g b.

Lemma same_toks_perm a b : Permutation a b -> same_toks a b.
Proof.
  intros Hp. split; [intros t; split; apply Permutation_in; [exact Hp|symmetry; exact Hp]|].
  intros g. unfold count_g. induction Hp; cbn [filter]; try congruence.
  - destruct (Nat.eqb (snd x) g); cbn [length]; congruence.
  - destruct (Nat.eqb (snd x) g), (Nat.eqb (snd y) g); reflexivity.
Qed.

Lemma ins_by_key_perm p l : Permutation (ins_by_key p l) (p :: l).
Proof.
  induction l as [|q r IH]; cbn [ins_by_key]; [reflexivity|].
  destruct (bleb (fst p) (fst q)); [reflexivity|]. rewrite IH. apply perm_swap.
Qed.

Lemma sort_yields_perm ys : Permutation (map snd (sort_yields ys)) ys.
Proof.
  unfold sort_yields. induction ys as [|y ys IH]; cbn [map fold_right]; [reflexivity|].
  rewrite ins_by_key_perm. cbn [map snd]. constructor. exact IH.
Qed.

(* the interpreter appends the sorted yields of a poll to the tokens it holds *)
Lemma poll_toks_same (held : list yield) ys :
  same_toks (ytoks ys ++ ytoks held) (ytoks (held ++ map (fun p => snd p) (sort_yields ys))).
Proof.
  apply same_toks_perm. rewrite ytoks_app, Permutation_app_comm.
  apply Permutation_app_head, Permutation_map. symmetry. apply sort_yields_perm.
Qed.

Lemma nth_error_split {A} (l : list A) i x : nth_error l i = Some x -> l = firstn i l ++ x :: skipn (S i) l.
Proof.
  revert i; induction l as [|a l IH]; intros [|i]; cbn; try discriminate.
  - intros H; inversion H; reflexivity.
  - intros H. f_equal. apply IH. exact H.
Qed.
Lemma remove_nth_split {A} (l : list A) i : remove_nth i l = firstn i l ++ skipn (S i) l.
Proof.
  revert i; induction l as [|a l IH]; intros [|i]; cbn; try reflexivity. f_equal. apply IH.
Qed.

Lemma flush_tokens w : w_tokens (flush w) = w_tokens w /\ w_killed (flush w) = w_killed w.
Proof.
  unfold flush. generalize (w_conns w). intros l. revert w.
  induction l as [|[g x] t IHt]; intros w; cbn [fold_left]; [auto|].
  destruct (IHt (flush_one w (g, x))) as (A1 & A2). rewrite A1, A2.
  unfold flush_one. destruct (flush_conn _ x _ []) as [y sent]. cbn. auto.
Qed.

Inductive sop :=
| SConnect (c : nat) | SSend (c : nat) (bs : bytes) | SClose (c : nat) | SShutWr (c : nat) | SShutRd (c : nat)
| SDrain (c : nat) | SPoll | SRespond (k : N) (r : arg) | SEcho (k : N) | SFlush | SKill | SLimit (n : N)
| SPollMany (k : N) | SBad.

Definition decode_sop (op : arg) : sop :=
  match op with
  | AL [AN 0; AN c] => SConnect (N.to_nat c)
  | AL [AN 1; AN c; AB bs] => SSend (N.to_nat c) bs
  | AL [AN 2; AN c] => SClose (N.to_nat c)
  | AL [AN 3; AN c] => SShutWr (N.to_nat c)
  | AL [AN 4; AN c] => SShutRd (N.to_nat c)
  | AL [AN 5; AN c] => SDrain (N.to_nat c)
  | AL [AN 6] => SPoll
  | AL [AN 7; AN k; r] => SRespond k r
  | AL [AN 12; AN k] => SEcho k
  | AL [AN 8] => SFlush
  | AL [AN 9] => SKill
  | AL [AN 10; AN n] => SLimit n
  | AL [AN 11; AN k] => SPollMany k
  | _ => SBad
  end.

Section RI2.
Variable BUF : nat.

Definition respond_at (pre : bytes) (w : world) (k : N) (mk : request -> response) : world * list bytes :=
  match w_tokens w with
  | [] => (w, [pre ++ B"resp none"])
  | _ =>
    let idx := N.to_nat (k mod N.of_nat (length (w_tokens w))) in
    match nth_error (w_tokens w) idx with
    | None => (w, [pre ++ B"resp none"])
    | Some (g, _, rq) =>
      let w1 := Server.mkW (w_clients w) (w_conns w) (w_backlog w) (remove_nth idx (w_tokens w))
                    (w_nextg w) (w_limit w) (w_killed w) in
      match respond w1 g (mk rq) with
      | inl w2 => (w2, [pre ++ B"resp Ok"])
      | inr e => (w1, [pre ++ B"resp Err(" ++ s_serr e ++ B")"])
      end
    end
  end.

Definition run_sop (id : N) (i : nat) (has_kill : bool) (w : world) (o : sop) : world * list bytes :=
  let pre := B"srv " ++ dec id ++ B" " ++ decn i ++ B" " in
  match o with
  | SConnect c =>
      (Server.mkW (w_clients w ++ [(c, mkCl true false false [] [] InBacklog)]) (w_conns w) (w_backlog w ++ [c])
           (w_tokens w) (w_nextg w) (w_limit w) (w_killed w), [pre ++ B"conn " ++ decn c])
  | SSend c bs =>
      let cl := client_of w c in
      let ok := k_open cl && negb (k_shut_wr cl) && match k_place cl with Gone => false | _ => true end in
      if ok then
        (set_client w c (mkCl (k_open cl) (k_shut_wr cl) (k_shut_rd cl) (k_tosrv cl ++ bs) (k_rx cl) (k_place cl)),
         [pre ++ B"send " ++ decn c ++ B" " ++ decn (length bs)])
      else (w, [pre ++ B"send " ++ decn c ++ B" 0"])
  | SClose c =>
      let cl := client_of w c in
      (set_client w c (mkCl false (k_shut_wr cl) (k_shut_rd cl) (k_tosrv cl) [] (k_place cl)), [pre ++ B"close " ++ decn c])
  | SShutWr c =>
      let cl := client_of w c in
      (set_client w c (mkCl (k_open cl) true (k_shut_rd cl) (k_tosrv cl) (k_rx cl) (k_place cl)), [pre ++ B"shutwr " ++ decn c])
  | SShutRd c =>
      let cl := client_of w c in
      (set_client w c (mkCl (k_open cl) (k_shut_wr cl) true (k_tosrv cl) (k_rx cl) (k_place cl)), [pre ++ B"shutrd " ++ decn c])
  | SDrain c =>
      let cl := client_of w c in
      (set_client w c (mkCl (k_open cl) (k_shut_wr cl) (k_shut_rd cl) (k_tosrv cl) [] (k_place cl)),
       [pre ++ B"drain " ++ decn c ++ B" " ++ hex (k_rx cl) ++ B" "
        ++ match k_place cl with Gone => B"eof" | _ => B"open" end])
  | SPoll => let '(w', line) := srv_poll BUF pre w in (w', [line])
  | SRespond k r => respond_at pre w k (fun _ => response_of r)
  | SEcho k => respond_at pre w k (fun rq => apply_op (response_new Http11 OK) (SetBody (B"echo:" ++ rl_uri (r_line rq))))
  | SFlush => (flush w, [pre ++ B"flush"])
  | SKill =>
      if has_kill then
        (Server.mkW (w_clients w) (w_conns w) (w_backlog w) (w_tokens w) (w_nextg w) (w_limit w) true, [pre ++ B"kill"])
      else (w, [pre ++ B"kill"])
  | SLimit n =>
      (Server.mkW (w_clients w) (w_conns w) (w_backlog w) (w_tokens w) (w_nextg w) n (w_killed w), [pre ++ B"limit"])
  | SPollMany k => srv_poll_many BUF (N.to_nat k) pre w
  | SBad => (w, [pre ++ B"?"])
  end.

(* the interpreter of run/Run.v is exactly this, operation by operation *)
Lemma run_srv_op_sop id i hk w op : run_srv_op BUF id i hk w op = run_sop id i hk w (decode_sop op).
Proof.
  unfold run_srv_op, run_sop.
  (* the line prefix is hidden first: every case would carry and compare it *)
  generalize (B"srv " ++ dec id ++ B" " ++ decn i ++ B" "). intros pre. unfold decode_sop, respond_at.
  repeat match goal with
         | |- context [match ?x with _ => _ end] => is_var x; destruct x
         end; reflexivity.
Qed.
End RI2.

Section RI3.
Variable BUF : nat.
Hypothesis BUF_min : (2 <= BUF)%nat.
Hypothesis BUF_u32 : N.of_nat BUF < U32_LIMIT.
Notation Inv := (Inv BUF).

Lemma handle_event_tokens w e w' ys : handle_event BUF w e = inl (w', ys) -> w_tokens w' = w_tokens w.
Proof.
  intros H. destruct (handle_event_cases BUF w e w' ys H) as [(fd & _ & x & y & cl' & rs & _ & _ & -> & _)|(nf & _ & _ & ->)].
  - reflexivity.
  - destruct (w_backlog w); [|destruct (Nat.eqb _ _)]; reflexivity.
Qed.

Lemma handle_all_tokens : forall es w acc w' ys, handle_all BUF w es acc = inl (w', ys) -> w_tokens w' = w_tokens w.
Proof.
  induction es as [|e t IH]; intros w acc w' ys; cbn [Server.handle_all]; [intros H; inversion H; reflexivity|].
  destruct (handle_event BUF w e) as [[w1 ys1]|] eqn:Hh; [|discriminate]. intros H.
  rewrite (IH _ _ _ _ H). eapply handle_event_tokens; eauto.
Qed.

Lemma poll_tokens w w' ys : poll BUF w = PYield w' ys -> w_tokens w' = w_tokens w.
Proof.
  intros H. destruct (poll_with_yield BUF _ _ _ _ H) as (_ & w1 & Hh & ->). exact (handle_all_tokens _ _ _ _ _ Hh).
Qed.

(* a step of clients or environment that leaves the table, the instance counter and the tokens alone and does
   not reset the kill switch; a poll; polls to quiescence; a response to a held token; a flush *)
Lemma run_sop_cases (P : world -> Prop) id i hk w o :
  (forall w', w_conns w' = w_conns w -> w_nextg w' = w_nextg w -> w_tokens w' = w_tokens w ->
              (w_killed w = true -> w_killed w' = true) -> P w') ->
  (forall pre, P (fst (srv_poll BUF pre w))) ->
  (forall fuel pre, P (fst (srv_poll_many BUF fuel pre w))) ->
  (forall pre k mk, P (fst (respond_at pre w k mk))) ->
  P (flush w) ->
  P (fst (run_sop BUF id i hk w o)).
Proof.
  intros Henv Hpoll Hmany Hresp Hflush. destruct o; cbn [run_sop]; auto.
  - destruct (_ && _); cbn [fst]; auto.
  - specialize (Hpoll (B"srv " ++ dec id ++ B" " ++ decn i ++ B" ")). destruct (srv_poll BUF _ w). exact Hpoll.
  - destruct hk; cbn [fst]; auto.
Qed.

Lemma srv_poll_many_inv (P : world -> Prop) :
  (forall pre w, P w -> P (fst (srv_poll BUF pre w))) ->
  forall fuel pre w, P w -> P (fst (srv_poll_many BUF fuel pre w)).
Proof.
  intros Hpoll. induction fuel as [|f IH]; intros pre w HP; cbn [srv_poll_many]; [exact HP|].
  pose proof (Hpoll pre w HP) as H1. destruct (srv_poll BUF pre w) as [w' line]. cbn [fst] in H1.
  destruct (poll BUF w); [exact H1| |exact H1].
  specialize (IH pre w' H1). destruct (srv_poll_many BUF f pre w') as [w'' ls]. exact IH.
Qed.

Lemma run_srv_ops_inv (P : world -> Prop) :
  (forall id i hk w o, P w -> P (fst (run_sop BUF id i hk w o))) ->
  forall ops id i hk w, P w -> P (fst (run_srv_ops BUF id i hk w ops)).
Proof.
  intros Hop. induction ops as [|op r IH]; intros id i hk w HP; cbn [run_srv_ops]; [exact HP|].
  pose proof (Hop id i hk w (decode_sop op) HP) as H1. rewrite <- run_srv_op_sop in H1.
  destruct (run_srv_op BUF id i hk w op) as [w' ls]. cbn [fst] in H1.
  specialize (IH id (S i) hk w' H1). destruct (run_srv_ops BUF id (S i) hk w' r) as [w'' ls']. exact IH.
Qed.

Lemma respond_tokens w fd r w' : respond w fd r = inl w' -> w_tokens w' = w_tokens w /\ w_killed w' = w_killed w.
Proof. intros H. apply respond_inl in H. destruct (alookup fd (w_conns w)); subst w'; auto. Qed.

(* a response of the interpreter: nothing when no token is held; otherwise one held token is given up and
   HttpServer::respond is called with its descriptor *)
Lemma respond_at_cases (P : world -> Prop) pre w k mk :
  P w ->
  (forall t1 g gi rq t2, w_tokens w = t1 ++ (g, gi, rq) :: t2 ->
     let w1 := Server.mkW (w_clients w) (w_conns w) (w_backlog w) (t1 ++ t2) (w_nextg w) (w_limit w) (w_killed w) in
     match respond w1 g (mk rq) with inl w2 => P w2 | inr _ => P w1 end) ->
  P (fst (respond_at pre w k mk)).
Proof.
  intros HP. unfold respond_at. destruct (w_tokens w) as [|t0 ts] eqn:Tk; [auto|]. rewrite <- Tk. intros Hr.
  destruct (nth_error (w_tokens w) _) as [[[g gi] rq]|] eqn:Nth; [|exact HP].
  specialize (Hr _ g gi rq _ (nth_error_split _ _ _ Nth)). rewrite <- remove_nth_split in Hr.
  destruct (respond _ g (mk rq)); exact Hr.
Qed.

Definition RI (w : world) : Prop := Inv w (ytoks (w_tokens w)).

Lemma srv_poll_RI pre w : RI w -> RI (fst (srv_poll BUF pre w)).
Proof.
  intros HI. unfold srv_poll. pose proof (poll_outcomes BUF BUF_min BUF_u32 w _ HI) as PO.
  destruct (poll BUF w) as [|w' ys|e] eqn:P; cbn [fst]; [exact HI| |exact HI].
  destruct PO as [I' _]. unfold RI. cbn [w_tokens]. rewrite (poll_tokens _ _ _ P).
  refine (Inv_env BUF w' _ _ _ _ _); [reflexivity|reflexivity|].
  destruct (poll_toks_same (w_tokens w) ys) as [T1 T2].
  exact (Inv_toks_ext BUF w' _ _ (fun t => proj2 (T1 t)) (fun g => eq_sym (T2 g)) I').
Qed.

Lemma respond_at_RI pre w k mk : RI w -> RI (fst (respond_at pre w k mk)).
Proof.
  intros HI. apply respond_at_cases; [exact HI|]. intros t1 g gi rq t2 Et w1.
  assert (I1 : Inv w1 (ytoks t1 ++ (g, gi) :: ytoks t2)).
  { unfold RI in HI. rewrite Et, ytoks_app in HI. exact (Inv_env BUF w _ w1 eq_refl eq_refl HI). }
  destruct (respond_ok BUF BUF_min BUF_u32 w1 _ _ g gi (mk rq) I1) as (w2 & x & Hr & I2 & _).
  rewrite Hr. unfold RI. rewrite (proj1 (respond_tokens _ _ _ _ Hr)). cbn [w1 w_tokens]. rewrite ytoks_app. exact I2.
Qed.

Theorem run_sop_RI id i hk w o : RI w -> RI (fst (run_sop BUF id i hk w o)).
Proof.
  intros HI. apply run_sop_cases.
  - intros w' Ec En Et _. unfold RI. rewrite Et. exact (Inv_env BUF w _ w' Ec En HI).
  - intros pre. apply srv_poll_RI, HI.
  - intros fuel pre. apply (srv_poll_many_inv RI srv_poll_RI), HI.
  - intros pre k mk. apply respond_at_RI, HI.
  - unfold RI. destruct (flush_tokens w) as (-> & _). apply (flush_inv BUF BUF_min BUF_u32), HI.
Qed.

Corollary executed_histories_keep_inv ops id hk :
  RI (fst (run_srv_ops BUF id 0 hk world0 ops)).
Proof. apply (run_srv_ops_inv RI run_sop_RI). unfold RI. cbn. apply Inv_world0; assumption. Qed.

(* hence, at every point of every executed history, the next poll cannot panic, cannot fail with
   InvalidWrite or Underflow: it blocks, yields, reports the shutdown, or overflows a u32 counter *)
Corollary executed_histories_poll ops id hk :
  let w := fst (run_srv_ops BUF id 0 hk world0 ops) in
  match poll BUF w with
  | PBlocked => ready_events w = []
  | PYield w' ys => Inv w' (ytoks ys ++ ytoks (w_tokens w)) /\ w_killed w = false
  | Server.PErr e => (e = EShutdown /\ w_killed w = true) \/ e = EOverflow
  end.
Proof. cbn zeta. apply (poll_outcomes BUF BUF_min BUF_u32). apply executed_histories_keep_inv. Qed.

Lemma poll_killed w : w_killed w = true -> poll BUF w = Server.PErr EShutdown.
Proof. intros Hk. unfold poll, ready_events. rewrite Hk. reflexivity. Qed.

Lemma srv_poll_killed pre w : w_killed w = true -> w_killed (fst (srv_poll BUF pre w)) = true.
Proof. intros Hk. unfold srv_poll. rewrite (poll_killed w Hk). exact Hk. Qed.

Lemma run_sop_killed id i hk w o : w_killed w = true -> w_killed (fst (run_sop BUF id i hk w o)) = true.
Proof.
  intros Hk. apply run_sop_cases; auto using srv_poll_killed.
  - intros fuel pre. apply (srv_poll_many_inv (fun w => w_killed w = true) srv_poll_killed), Hk.
  - intros pre k mk. apply respond_at_cases; [exact Hk|]. intros t1 g gi rq t2 _ w1.
    destruct (respond w1 g _) as [w2|] eqn:R; [rewrite (proj2 (respond_tokens _ _ _ _ R))|]; exact Hk.
  - destruct (flush_tokens w) as (_ & ->). exact Hk.
Qed.

(* once the switch is signalled, whatever happens afterwards -- any operations of clients and application --
   every poll reports the shutdown *)
Theorem executed_kill_is_forever ops id i hk w :
  w_killed w = true -> poll BUF (fst (run_srv_ops BUF id i hk w ops)) = Server.PErr EShutdown.
Proof. intros Hk. apply poll_killed. apply (run_srv_ops_inv (fun w => w_killed w = true) run_sop_killed), Hk. Qed.

(* C10 over executed histories: never more than MAX_CONNECTIONS entries, all under distinct descriptors *)
Corollary executed_capacity ops id hk :
  (length (w_conns (fst (run_srv_ops BUF id 0 hk world0 ops))) <= MAX_CONNECTIONS)%nat /\
  NoDup (map fst (w_conns (fst (run_srv_ops BUF id 0 hk world0 ops)))).
Proof.
  pose proof (executed_histories_keep_inv ops id hk) as HI. split; [apply (inv_cap _ _ _ HI)|apply (inv_nodup _ _ _ HI)].
Qed.

(* C18, second clause: before it is signalled the kill switch changes nothing -- a history in which it is never
   signalled runs identically with and without a kill switch registered (same worlds, same observations) *)
Lemma run_sop_hk id i w o : o <> SKill -> run_sop BUF id i true w o = run_sop BUF id i false w o.
Proof. destruct o; intros H; try reflexivity. congruence. Qed.

Theorem kill_switch_inert : forall ops id i w,
  Forall (fun op => decode_sop op <> SKill) ops ->
  run_srv_ops BUF id i true w ops = run_srv_ops BUF id i false w ops.
Proof.
  induction ops as [|op r IH]; intros id i w Hall; cbn [run_srv_ops]; [reflexivity|].
  inversion Hall as [|? ? H1 H2]; subst.
  rewrite !run_srv_op_sop. rewrite (run_sop_hk id i w _ H1).
  destruct (run_sop BUF id i false w (decode_sop op)) as [w' ls]. rewrite (IH id (S i) w' H2). reflexivity.
Qed.

End RI3.
