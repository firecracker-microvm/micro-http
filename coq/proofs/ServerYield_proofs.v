(* C08 "each complete request is yielded exactly once": in one poll, wherever the IN event of a connection
   stands in the batch, the yields that carry that connection's descriptor are exactly the requests the
   specification parser completes on carry ++ the bytes read, in order, tagged with the connection's
   instance; no other event of the batch yields anything under that descriptor.  Across polls the yields are
   the specification parser's requests on carry ++ pending input (drive_yields_exact); a read whose bytes are rejected yields nothing and
   leaves the parser as new (C11: server_rejected_read, server_continues_as_new). *)
From MH Require Export proofs.ServerExpect_proofs.

Definition yields_of (fd : nat) (ys : list yield) : list yield := filter (fun y => Nat.eqb (fst (fst y)) fd) ys.

Lemma yields_of_app fd a b : yields_of fd (a ++ b) = yields_of fd a ++ yields_of fd b.
Proof. unfold yields_of. apply filter_app. Qed.

Lemma yields_of_tagged fd fd0 g (rs : list request) :
  yields_of fd (map (fun r => (fd0, g, r)) rs) = if Nat.eqb fd0 fd then map (fun r => (fd0, g, r)) rs else [].
Proof.
  unfold yields_of. induction rs as [|r rs IH]; cbn [map filter fst]; [destruct (Nat.eqb fd0 fd); reflexivity|].
  rewrite IH. destruct (Nat.eqb fd0 fd); reflexivity.
Qed.

Section SY.
Variable BUF : nat.
Hypothesis BUF_min : (2 <= BUF)%nat.
Hypothesis BUF_u32 : N.of_nat BUF < U32_LIMIT.
Notation CInv := (CInv BUF).
Notation Inv := (Inv BUF).
Notation handle_event := (handle_event BUF).
Notation handle_all := (handle_all BUF).

(* only the IN event of fd yields anything under fd *)
Lemma no_read_no_yield w e w' ys fd :
  handle_event w e = inl (w', ys) -> (forall kk, e <> EvIn fd kk) -> yields_of fd ys = [].
Proof.
  intros H Hne.
  destruct (handle_event_cases BUF w e w' ys H) as [(fd0 & K & x0 & y & cl' & rs & _ & _ & _ & -> & Hrs & _)|(nf & _ & -> & _)]; [|reflexivity].
  rewrite yields_of_tagged. destruct (Nat.eqb_spec fd0 fd) as [->|]; [|reflexivity].
  destruct Hrs as [-> _]; [|reflexivity]. intros g k ->. injection K as ->. exact (Hne k eq_refl).
Qed.

Lemma no_read_no_yields : forall es w acc w' ys fd,
  handle_all w es acc = inl (w', ys) -> (forall kk, ~ In (EvIn fd kk) es) -> yields_of fd ys = yields_of fd acc.
Proof.
  induction es as [|e t IH]; intros w acc w' ys fd; cbn [Server.handle_all].
  - intros H _. injection H as _ <-. reflexivity.
  - destruct (handle_event w e) as [[w1 ys1]|] eqn:Hh; [|discriminate]. intros H Hno.
    rewrite (IH _ _ _ _ _ H), yields_of_app, (no_read_no_yield _ _ _ _ _ Hh), app_nil_r; [reflexivity| |].
    + intros kk ->. apply (Hno kk). left. reflexivity.
    + intros kk Hin. apply (Hno kk). right. exact Hin.
Qed.

(* C08, exactly once within a poll: the yields of one poll under descriptor fd *)
Theorem batch_yields_exact pre post w toks w' ys fd kk x ph :
  Inv w toks -> Calm w ->
  Forall (evt_live w) (pre ++ EvIn fd kk :: post) -> NoDup (map ev_key (pre ++ EvIn fd kk :: post)) ->
  handle_all w (pre ++ EvIn fd kk :: post) [] = inl (w', ys) ->
  alookup fd (w_conns w) = Some x -> CInv (sc_conn x) ph ->
  let c := sc_conn x in
  let t := k_tosrv (client_of w (sc_client x)) in
  let d := firstn (read_amount kk (BUF - length (c_win c)) (length t)) t in
  yields_of fd ys =
  match runT BUF (c_pmax c) ph (c_win c ++ d) [] with
  | RMore _ _ outs => map (fun r => (fd, sc_gid x, r)) (c_parsed c ++ reqs_of outs (c_files c))
  | _ => []
  end.
Proof.
  intros HI HC Hl Hnd Hrun HL I. cbn zeta.
  destruct (batch_read_spec BUF BUF_min BUF_u32 pre post w toks [] w' ys fd kk x ph HI HC Hl Hnd Hrun HL I)
    as (w1 & ys1 & w2 & ys2 & y & Hp & Hq & _ & _ & _ & _ & _ & _ & _ & M).
  (* no event before or after the IN event of fd has the key of fd, so none yields under fd *)
  assert (E : yields_of fd ys = yields_of fd ys2).
  { rewrite map_app in Hnd. apply NoDup_remove_2 in Hnd.
    rewrite (no_read_no_yields post w2 _ w' ys fd Hq), yields_of_app, (no_read_no_yields pre w [] w1 ys1 fd Hp); [reflexivity| |];
      intros kk' Hin; apply Hnd, in_or_app; [left|right]; exact (in_map ev_key _ _ Hin). }
  rewrite E.
  unfold read_outcome in M.
  destruct (runT BUF (c_pmax (sc_conn x)) ph _ []) as [ph' carry outs|outs e|]; [| |destruct M];
    destruct M as (_ & _ & _ & -> & _); [rewrite yields_of_tagged, Nat.eqb_refl|]; reflexivity.
Qed.

(* the entry at fd is [x] but for its output queue, and the unread input of its client is [t] *)
Definition not_read (fd : nat) (x : sconn) (t : bytes) (w : world) : Prop :=
  exists y, alookup fd (w_conns w) = Some y /\ sc_gid y = sc_gid x /\ sc_client y = sc_client x /\
    (exists rq rb, sc_conn y = set_write (sc_conn x) rq rb) /\ k_tosrv (client_of w (sc_client x)) = t.

Lemma not_read_step w toks e w' ys fd x t :
  Inv w toks -> Calm w -> evt_live w e -> (forall kk, e <> EvIn fd kk) -> handle_event w e = inl (w', ys) ->
  not_read fd x t w -> not_read fd x t w'.
Proof.
  intros HI HC He Hr H (y & L & Hg & Hc & (rq & rb & Ec) & Ht).
  assert (U : ev_key e <> KConn fd -> not_read fd x t w').
  { intros Hk. destruct (untouched_frame BUF w e w' ys fd y HC H L Hk) as [L2 C2].
    exists y. rewrite <- Hc, C2, Hc. eauto 8. }
  destruct e as [g|g k|g k|nf|]; [destruct He| | |apply U; discriminate|destruct He].
  - apply U. intros E. injection E as ->. exact (Hr k eq_refl).
  - destruct (Nat.eq_dec g fd) as [->|Hne]; [|apply U; cbn; congruence].
    destruct He as (y0 & L0 & Ho). rewrite L in L0. injection L0 as <-.
    destruct (inv_cc _ _ _ HI _ _ L) as [Hst _]. destruct (calm_conns _ HC _ _ L) as (_ & _ & cl & Hcl).
    destruct (handle_out BUF w fd k y L Hst Ho) as (y' & sent & rq' & rb' & E & Ec' & Hg' & Hc' & _).
    rewrite E in H. injection H as <- _. exists y'.
    split; [cbn [set_client set_conn w_conns]; rewrite alookup_aupdate, Nat.eqb_refl, L; reflexivity|].
    split; [congruence|]. split; [congruence|]. split; [exists rq', rb'; rewrite Ec', Ec; reflexivity|].
    rewrite <- Hc, (client_of_update_same _ _ _ _ cl _ Hcl). cbn [k_tosrv]. rewrite Hc. exact Ht.
Qed.

Lemma batch_no_read es w toks acc w' ys fd x :
  Inv w toks -> Calm w -> Forall (evt_live w) es -> NoDup (map ev_key es) -> (forall kk, ~ In (EvIn fd kk) es) ->
  handle_all w es acc = inl (w', ys) -> alookup fd (w_conns w) = Some x ->
  not_read fd x (k_tosrv (client_of w (sc_client x))) w'.
Proof.
  intros HI HC Hl Hnd Hno Hrun HL. rewrite <- (app_nil_r es) in Hl, Hnd.
  refine (proj1 (live_batch BUF BUF_min BUF_u32 (fun e => forall kk, e <> EvIn fd kk) (fun w1 _ => not_read fd x _ w1)
                   (fun w1 toks1 _ e w2 ys2 => not_read_step w1 toks1 e w2 ys2 fd x _)
                   es [] w toks acc w' ys HI HC Hl Hnd _ Hrun _)).
  - apply Forall_forall. intros e Hin kk ->. exact (Hno kk Hin).
  - exists x. repeat (split; [assumption || reflexivity|]). split; [|reflexivity].
    exists (c_rq (sc_conn x)), (c_rbuf (sc_conn x)). destruct (sc_conn x); reflexivity.
Qed.

Lemma files_after_nil outs : files_after outs [] = [].
Proof. unfold files_after. destruct (has_request outs); reflexivity. Qed.

(* Connection fd (instance g, client c) is between polls, and the whole-stream parser, run on its carry and on
   what its client has sent and the server has not read, completes the requests [rest] and ends in phase
   [phF] with carry [carryF]. *)
Definition to_come (fd g c : nat) (phF : phase) (carryF : bytes) (w : world) (rest : list request) : Prop :=
  exists x ph outs, alookup fd (w_conns w) = Some x /\ sc_gid x = g /\ sc_client x = c /\ CInv (sc_conn x) ph /\
    c_parsed (sc_conn x) = [] /\ c_files (sc_conn x) = [] /\
    runT BUF (c_pmax (sc_conn x)) ph (c_win (sc_conn x) ++ k_tosrv (client_of w c)) [] = RMore phF carryF outs /\
    rest = reqs_of outs [].

(* one poll yields a prefix of what is to come, and leaves the rest to come *)
Lemma poll_yields_prefix w toks w1 ys1 fd g c phF carryF rest :
  Inv w toks -> Calm w -> to_come fd g c phF carryF w rest -> poll BUF w = PYield w1 ys1 ->
  exists rest1, to_come fd g c phF carryF w1 rest1 /\
    map (fun r => (fd, g, r)) rest = yields_of fd ys1 ++ map (fun r => (fd, g, r)) rest1.
Proof.
  intros HI HC (x & ph & outs & HL & <- & <- & I & Hp0 & Hf0 & HR & ->) P.
  destruct (calm_poll BUF BUF_min BUF_u32 w toks w1 ys1 HI HC P) as (Hl & Hnd & Hrun).
  assert (D : (sc_out x = false /\ k_tosrv (client_of w (sc_client x)) <> []) \/
              (sc_out x = true \/ k_tosrv (client_of w (sc_client x)) = [])).
  { destruct (sc_out x); [auto|]. destruct (k_tosrv _); [auto|left; split; [reflexivity|discriminate]]. }
  destruct D as [[Ho Hne]|Hno].
  - (* input pending and no output: the batch reads fd once *)
    destruct (in_split _ _ (ready_in w fd x HC HL Ho Hne)) as (pre & post & Ere). rewrite Ere in Hl, Hnd, Hrun.
    rewrite (batch_yields_exact pre post w toks w1 ys1 fd 0 x ph HI HC Hl Hnd Hrun HL I).
    destruct (batch_read_spec BUF BUF_min BUF_u32 pre post w toks [] w1 ys1 fd 0 x ph HI HC Hl Hnd Hrun HL I)
      as (_ & _ & _ & ys2 & y & _ & _ & L1 & G1 & C1 & T1 & _ & _ & _ & M).
    unfold read_outcome in M.
    set (c := sc_conn x) in *. set (t := k_tosrv (client_of w (sc_client x))) in *.
    set (d := firstn (read_amount 0 (BUF - length (c_win c)) (length t)) t) in *.
    (* the pending input is the bytes of this read and the rest *)
    assert (Et : t = d ++ skipn (length d) t).
    { unfold d. rewrite firstn_length_le by apply Nat.le_min_r. symmetry. apply firstn_skipn. }
    rewrite Et, app_assoc, runT_app' in HR.
    destruct (runT BUF (c_pmax c) ph (c_win c ++ d) []) as [ph' carry o|o e|]; [|discriminate|destruct M].
    destruct M as (I1 & W1 & _ & _ & P1 & F1 & M1). rewrite (runT_acc BUF (c_pmax c) ph' _ o) in HR.
    destruct (runT BUF (c_pmax c) ph' (carry ++ skipn (length d) t) []) as [phx cx o'| |] eqn:Rr; try discriminate.
    injection HR as -> -> <-. rewrite Hf0, files_after_nil in F1.
    exists (reqs_of o' []). split.
    + exists y, ph', o'. rewrite M1, W1, T1. auto 10.
    + rewrite Hp0, Hf0, reqs_of_app, files_after_nil, map_app. reflexivity.
  - (* the batch does not read fd *)
    assert (Hnr : forall kk, ~ In (EvIn fd kk) (ready_events w)).
    { intros kk Hin. rewrite Forall_forall in Hl. destruct (Hl _ Hin) as (x' & L & Ho & Hne).
      rewrite HL in L. destruct Hno; congruence. }
    destruct (batch_no_read (ready_events w) w toks [] w1 ys1 fd x HI HC Hl Hnd Hnr Hrun HL)
      as (y & L1 & G1 & C1 & (rq & rb & Ec) & T1).
    rewrite (no_read_no_yields _ _ _ _ _ fd Hrun Hnr). exists (reqs_of outs []). split; [|reflexivity].
    exists y, ph, outs. rewrite Ec, T1. cbn [set_write c_parsed c_files c_pmax c_win].
    repeat (split; [assumption|]). split; [|auto]. apply (CInv_parser_same BUF (sc_conn x)); [exact I|repeat split].
Qed.

Theorem drive_yields_exact : forall w toks acc fd x ph phF carryF outsF,
  Inv w toks -> Calm w -> alookup fd (w_conns w) = Some x -> CInv (sc_conn x) ph ->
  c_parsed (sc_conn x) = [] -> c_files (sc_conn x) = [] ->
  runT BUF (c_pmax (sc_conn x)) ph (c_win (sc_conn x) ++ k_tosrv (client_of w (sc_client x))) [] = RMore phF carryF outsF ->
  exists n, match drive BUF n w acc with
            | DQuiet w2 ys =>
                yields_of fd ys = yields_of fd acc ++ map (fun r => (fd, sc_gid x, r)) (reqs_of outsF []) /\
                exists x2, alookup fd (w_conns w2) = Some x2 /\ CInv (sc_conn x2) phF /\ c_win (sc_conn x2) = carryF /\
                           sc_gid x2 = sc_gid x /\ k_tosrv (client_of w2 (sc_client x)) = []
            | DOverflow => True
            | DFuel => False
            end.
Proof.
  intros w toks acc fd x ph phF carryF outsF HI HC HL I Hp0 Hf0 HR.
  (* across the polls: what has been yielded under fd, then what is still to come, is the same list *)
  pose (R := fun w1 acc1 => exists rest, to_come fd (sc_gid x) (sc_client x) phF carryF w1 rest /\
                yields_of fd acc1 ++ map (fun r => (fd, sc_gid x, r)) rest =
                yields_of fd acc ++ map (fun r => (fd, sc_gid x, r)) (reqs_of outsF [])).
  assert (Step : forall w1 toks1 acc1 w2 ys, Inv w1 toks1 -> Calm w1 -> R w1 acc1 -> poll BUF w1 = PYield w2 ys -> R w2 (acc1 ++ ys)).
  { intros w1 toks1 acc1 w2 ys HI1 HC1 (rest & T & Hy) P.
    destruct (poll_yields_prefix w1 toks1 w2 ys fd _ _ phF carryF rest HI1 HC1 T P) as (rest1 & T1 & E).
    exists rest1. split; [exact T1|]. rewrite yields_of_app, <- app_assoc, <- E. exact Hy. }
  assert (R0 : R w acc) by (exists (reqs_of outsF []); split; [exists x, ph, outsF; auto 10|reflexivity]).
  destruct (drive_induction BUF BUF_min BUF_u32 R Step w toks acc HI HC R0) as [n Hn]. exists n.
  destruct (drive BUF n w acc) as [w2 ys| |]; auto.
  destruct Hn as (Hq & HC2 & (toks2 & HI2) & K).
  destruct K as (rest & (x2 & ph2 & outs2 & L2 & G2 & C2 & I2 & _ & _ & HR2 & ->) & Hy).
  (* nothing is ready: no input is pending, so nothing is to come *)
  destruct (blocked_means_done BUF w2 toks2 HI2 HC2 Hq) as (_ & Hdone). destruct (Hdone fd x2 L2) as (_ & _ & Ht).
  rewrite C2 in Ht. rewrite Ht, app_nil_r, (stuck_runT BUF _ _ _ [] (proj2 I2)) in HR2. injection HR2 as <- <- <-.
  cbn [reqs_of map] in Hy. rewrite app_nil_r in Hy. split; [exact Hy|]. exists x2. auto 6.
Qed.

(* a read whose bytes the parser rejects: nothing is yielded -- not the rejected request, not the requests
   completed earlier in the same read -- the 400 is queued, and the connection's parser is that of a new
   connection: waiting for a request line, empty window, nothing parsed, no descriptors, same limit *)
Theorem server_rejected_read w toks fd kk w' ys x ph outs e :
  Inv w toks -> alookup fd (w_conns w) = Some x -> CInv (sc_conn x) ph ->
  k_tosrv (client_of w (sc_client x)) <> [] ->
  handle_event w (EvIn fd kk) = inl (w', ys) ->
  let c := sc_conn x in
  let t := k_tosrv (client_of w (sc_client x)) in
  let d := firstn (read_amount kk (BUF - length (c_win c)) (length t)) t in
  runT BUF (c_pmax c) ph (c_win c ++ d) [] = RErr outs e ->
  ys = [] /\
  exists y, alookup fd (w_conns w') = Some y /\ sc_gid y = sc_gid x /\ sc_client y = sc_client x /\
    CInv (sc_conn y) PLine /\ c_win (sc_conn y) = [] /\ c_parsed (sc_conn y) = [] /\ c_files (sc_conn y) = [] /\
    c_pmax (sc_conn y) = c_pmax c /\
    unsent (sc_conn y) = unsent c ++ flat_map serialize (conts_of outs ++ [bad_request_response e]).
Proof.
  intros HI HL I Hne Hin. cbn zeta. intros HR.
  pose proof (server_read_exact BUF BUF_min BUF_u32 w toks fd kk w' ys x ph HI HL I Hne Hin) as SR. cbn zeta in SR.
  rewrite HR in SR. destruct SR as (_ & y & L & G & C & _ & A1 & A2 & A3 & A4 & A5 & A6 & A7).
  split; [exact A4|]. exists y. auto 12.
Qed.

(* and from such a state everything that follows is handled as by a new connection: polling while ready
   yields exactly the requests of the whole-stream parser started afresh on the input that follows *)
Theorem server_continues_as_new w toks acc fd x phF carryF outsF :
  Inv w toks -> Calm w -> alookup fd (w_conns w) = Some x ->
  CInv (sc_conn x) PLine -> c_win (sc_conn x) = [] -> c_parsed (sc_conn x) = [] -> c_files (sc_conn x) = [] ->
  parse_stream BUF (c_pmax (sc_conn x)) (k_tosrv (client_of w (sc_client x))) = RMore phF carryF outsF ->
  exists n, match drive BUF n w acc with
            | DQuiet w2 ys =>
                yields_of fd ys = yields_of fd acc ++ map (fun r => (fd, sc_gid x, r)) (reqs_of outsF []) /\
                exists x2, alookup fd (w_conns w2) = Some x2 /\ CInv (sc_conn x2) phF /\ c_win (sc_conn x2) = carryF /\
                           sc_gid x2 = sc_gid x /\ k_tosrv (client_of w2 (sc_client x)) = []
            | DOverflow => True
            | DFuel => False
            end.
Proof.
  intros HI HC HL I Hw Hp Hf HR.
  apply (drive_yields_exact w toks acc fd x PLine phF carryF outsF HI HC HL I Hp Hf).
  rewrite Hw. exact HR.
Qed.
End SY.

(* non-vacuity: a client connects having sent two pipelined requests; after the accepting poll, polling while
   ready yields exactly those two requests, in order, once each, under the connection's descriptor *)
Definition wP : world :=
  Server.mkW [(0%nat, mkCl true false false
                 (B"GET /a HTTP/1.1" ++ CRLF ++ CRLF ++ B"PUT /b HTTP/1.0" ++ CRLF ++ B"Content-Length: 2" ++ CRLF ++ CRLF ++ B"hi") [] InBacklog)]
             [] [0%nat] [] 0 MAX_PAYLOAD_SIZE false.
Example two_requests_example :
  match poll 1024 wP with
  | PYield wQ _ =>
      match drive 1024 8 wQ [] with
      | DQuiet _ ys => map (fun y => rl_uri (r_line (snd y))) (yields_of 1 ys) = [B"/a"; B"/b"] /\ length ys = 2%nat
      | _ => False
      end
  | _ => False
  end.
Proof. vm_compute. split; reflexivity. Qed.
