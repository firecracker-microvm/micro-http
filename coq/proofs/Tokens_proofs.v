(* Method / Version / MediaType / StatusCode tables and Uri::get_abs_path. *)
From MH Require Export model.Tokens proofs.Bytes_proofs.

(* The parsers are if-chains of beq, i.e. look-ups in the tables that tie/ compares with the source. *)
Fixpoint lookup {A} (tbl : list (bytes * A)) (bs : bytes) : option A :=
  match tbl with
  | [] => None
  | (k, a) :: r => if beq bs k then Some a else lookup r bs
  end.

Lemma lookup_sound {A} (raw : A -> bytes) all bs x :
  lookup (map (fun x => (raw x, x)) all) bs = Some x -> bs = raw x.
Proof.
  induction all as [|y all IH]; cbn; [discriminate|].
  destruct (beq_spec bs (raw y)) as [->|_]; [intros [= ->]; reflexivity|exact IH].
Qed.

(* a parser that inverts raw has an injective raw, and rejects exactly the other strings *)
Lemma raw_injective {A} (parse : bytes -> option A) raw : (forall x, parse (raw x) = Some x) ->
  forall a b : A, raw a = raw b -> a = b.
Proof. intros R a b H. apply (f_equal parse) in H. rewrite !R in H. congruence. Qed.

Lemma parse_none_iff {A} (parse : bytes -> option A) raw : (forall bs x, parse bs = Some x <-> bs = raw x) ->
  forall bs, parse bs = None <-> forall x, bs <> raw x.
Proof.
  intros I bs. split.
  - intros H x E. apply I in E. congruence.
  - intros H. destruct (parse bs) as [x|] eqn:E; [|reflexivity]. apply I in E. destruct (H x E).
Qed.

Lemma parse_method_raw m : parse_method (raw_method m) = Some m.
Proof. destruct m; reflexivity. Qed.

Lemma parse_method_iff bs m : parse_method bs = Some m <-> bs = raw_method m.
Proof. split; [apply (lookup_sound raw_method all_methods)|intros ->; apply parse_method_raw]. Qed.

Lemma parse_method_none bs : parse_method bs = None <-> forall m, bs <> raw_method m.
Proof. apply parse_none_iff, parse_method_iff. Qed.

Lemma parse_version_raw v : parse_version (raw_version v) = Some v.
Proof. destruct v; reflexivity. Qed.

Lemma parse_version_iff bs v : parse_version bs = Some v <-> bs = raw_version v.
Proof. split; [apply (lookup_sound raw_version all_versions)|intros ->; apply parse_version_raw]. Qed.

Lemma parse_version_none bs : parse_version bs = None <-> forall v, bs <> raw_version v.
Proof. apply parse_none_iff, parse_version_iff. Qed.

(* MediaType::try_from: exactly the canonical spellings modulo surrounding white space, on
   non-empty valid UTF-8 *)
Lemma parse_media_iff bs t :
  parse_media bs = Some t <-> bs <> [] /\ utf8_valid bs = true /\ trim bs = media_str t.
Proof.
  unfold parse_media. destruct bs as [|b bs']; [split; [discriminate|intros [[] _]; reflexivity]|].
  generalize (b :: bs') (@nil_cons _ b bs'). intros bs Hne.
  destruct (utf8_valid bs); [|split; [discriminate|intros (_ & [=] & _)]]. split.
  - intros H. apply (lookup_sound media_str all_media) in H. auto.
  - intros (_ & _ & ->). destruct t; reflexivity.
Qed.

Lemma parse_media_canonical t : parse_media (media_str t) = Some t.
Proof. destruct t; vm_compute; reflexivity. Qed.

Lemma raw_status_injective a b : raw_status a = raw_status b -> a = b.
Proof.
  apply (raw_injective (lookup (map (fun s => (raw_status s, s)) all_status))). intros []; reflexivity.
Qed.

Lemma raw_status_three_digits s :
  length (raw_status s) = 3%nat /\ forallb is_digit (raw_status s) = true.
Proof. destruct s; vm_compute; auto. Qed.

Lemma raw_method_injective a b : raw_method a = raw_method b -> a = b.
Proof. exact (raw_injective _ _ parse_method_raw a b). Qed.
Lemma raw_version_injective a b : raw_version a = raw_version b -> a = b.
Proof. exact (raw_injective _ _ parse_version_raw a b). Qed.

Lemma abs_path_origin_form r : abs_path (SLASH :: r) = SLASH :: r.
Proof. reflexivity. Qed.

Lemma abs_path_absolute_form a p :
  ~ In SLASH a -> abs_path (HTTP_SCHEME_PREFIX ++ a ++ SLASH :: p) = SLASH :: p.
Proof.
  intros H. unfold abs_path.
  rewrite (proj2 (prefixb_spec _ _)) by eauto. rewrite skipn_app_exact.
  destruct (a ++ SLASH :: p) eqn:E; [destruct a; discriminate|]. rewrite <- E.
  rewrite position_split_at, split_at_app by exact H. apply skipn_app_exact.
Qed.

Lemma abs_path_no_authority_slash a :
  ~ In SLASH a -> abs_path (HTTP_SCHEME_PREFIX ++ a) = [].
Proof.
  intros H. unfold abs_path.
  rewrite (proj2 (prefixb_spec _ _)), skipn_app_exact by eauto.
  rewrite position_split_at, (proj2 (split_at_none _ _) H). destruct a; reflexivity.
Qed.

Lemma abs_path_other u :
  prefixb HTTP_SCHEME_PREFIX u = false -> (forall r, u <> SLASH :: r) -> abs_path u = [].
Proof.
  intros P H. unfold abs_path. rewrite P. destruct u as [|a r]; [reflexivity|].
  destruct (a =? SLASH) eqn:E; [|reflexivity]. apply N.eqb_eq in E. subst. destruct (H r eq_refl).
Qed.

(* every URI falls in one of the four classes above *)
Lemma uri_classes u :
  (exists r, u = SLASH :: r)
  \/ (exists a p, u = HTTP_SCHEME_PREFIX ++ a ++ SLASH :: p /\ ~ In SLASH a)
  \/ (exists a, u = HTTP_SCHEME_PREFIX ++ a /\ ~ In SLASH a)
  \/ (prefixb HTTP_SCHEME_PREFIX u = false /\ forall r, u <> SLASH :: r).
Proof.
  destruct (prefixb HTTP_SCHEME_PREFIX u) eqn:P.
  - apply prefixb_spec in P. destruct P as [w ->].
    destruct (split_at SLASH w) as [[a p]|] eqn:E.
    + apply split_at_some in E. destruct E as [-> Hn]. right. left. eauto.
    + apply split_at_none in E. right. right. left. eauto.
  - destruct u as [|x r].
    + right. right. right. split; auto. intros r; discriminate.
    + destruct (x =? SLASH) eqn:E.
      * apply N.eqb_eq in E; subst. left. eauto.
      * apply N.eqb_neq in E. right. right. right. split; auto. intros r' H. inversion H. contradiction.
Qed.

(* hence: always empty, or a '/'-prefixed suffix of the URI *)
Lemma abs_path_suffix u :
  abs_path u = [] \/ exists pre r, u = pre ++ abs_path u /\ abs_path u = SLASH :: r.
Proof.
  destruct (uri_classes u) as [[r ->]|[(a & p & -> & H)|[(a & -> & H)|[P H]]]].
  - right. exists [], r. rewrite abs_path_origin_form. auto.
  - right. exists (HTTP_SCHEME_PREFIX ++ a), p. rewrite abs_path_absolute_form by exact H.
    rewrite <- app_assoc. auto.
  - left. apply abs_path_no_authority_slash. exact H.
  - left. apply abs_path_other; auto.
Qed.

(* taking the absolute path twice changes nothing: the result is empty or already in origin form *)
Lemma abs_path_idempotent u : abs_path (abs_path u) = abs_path u.
Proof.
  destruct (abs_path_suffix u) as [E|(pre & r & _ & E)]; rewrite E.
  - reflexivity.
  - apply abs_path_origin_form.
Qed.
