(* C07, provenance over histories of polls, responses and client / environment actions (clients may close,
   descriptors may be reused; flush_outgoing_writes is covered by Stream_proofs.v):
   - every connection instance (gid) is bound to one client for its whole life, and instance numbers
     are never reused, so a token (fd, g) always means "the connection accepted for client beta g";
   - bytes enter a client's receive queue only from the unsent output of a connection bound to that
     client (or as the 503 refusal of that very client);
   - unsent output of a connection receives only server-generated replies produced while reading that
     connection, and responses supplied with a token of that connection's instance. *)
From MH Require Export proofs.Progress_proofs.

Section Prov.
Variable BUF : nat.
Hypothesis BUF_min : (2 <= BUF)%nat.
Hypothesis BUF_u32 : N.of_nat BUF < U32_LIMIT.

Notation handle_event := (handle_event BUF).
Notation handle_all := (handle_all BUF).
Notation poll_with := (poll_with BUF).
Notation Inv := (Inv BUF).

Definition bound (beta : nat -> nat) (w : world) : Prop :=
  forall fd x, alookup fd (w_conns w) = Some x -> beta (sc_gid x) = sc_client x.

Lemma bound_update beta w w' fd x y :
  bound beta w -> alookup fd (w_conns w) = Some x -> same_peer x y ->
  w_conns w' = aupdate fd y (w_conns w) -> bound beta w'.
Proof.
  intros Hb HL [Eg Ec] E fd0 x0 H0. rewrite E, alookup_aupdate in H0.
  destruct (Nat.eqb_spec fd fd0) as [<-|]; [|eauto].
  rewrite HL in H0. injection H0 as <-. rewrite Eg, Ec. eauto.
Qed.

Lemma bound_older beta beta' w n toks :
  Inv w toks -> (w_nextg w <= n)%nat -> (forall g, (g < n)%nat -> beta' g = beta g) -> bound beta w -> bound beta' w.
Proof.
  clear BUF_min BUF_u32. intros HI Hn Hag Hb fd x HL. rewrite Hag; [eauto|]. pose proof (inv_gid_lt _ _ _ HI _ _ HL). lia.
Qed.

(* an accepted client is recorded under the next instance number, which no entry carries yet *)
Definition born (beta : nat -> nat) (g c : nat) : nat -> nat := fun g' => if Nat.eqb g' g then c else beta g'.

Lemma born_older beta g c g' : (g' < g)%nat -> born beta g c g' = beta g'.
Proof. clear BUF_min BUF_u32. intros Hlt. unfold born. destruct (Nat.eqb_spec g' g); [lia|reflexivity]. Qed.

Lemma bound_accept beta w toks c cl rest nf :
  Inv w toks -> bound beta w -> bound (born beta (w_nextg w) c) (accepted_world w c cl rest nf).
Proof.
  intros HI Hb fd x H. cbn [accepted_world w_conns] in H. rewrite alookup_app_end in H.
  destruct (alookup fd (w_conns w)) as [v|] eqn:E.
  - injection H as <-. rewrite born_older by (eapply inv_gid_lt; eauto). eauto.
  - destruct (Nat.eqb nf fd); [|discriminate]. injection H as <-. unfold born. cbn. rewrite Nat.eqb_refl. reflexivity.
Qed.

(* one event: the record is only ever extended, at instance numbers not used before; yields carry
   the descriptor and the instance of the connection that was read *)
Theorem event_binding w toks e w' ys beta :
  Inv w toks -> handle_event w e = inl (w', ys) -> bound beta w ->
  exists beta', (forall g, (g < w_nextg w)%nat -> beta' g = beta g) /\ bound beta' w' /\
    (w_nextg w <= w_nextg w')%nat /\
    forall fd g r, In (fd, g, r) ys -> exists x, alookup fd (w_conns w) = Some x /\ sc_gid x = g /\ exists kk, e = EvIn fd kk.
Proof using All.
  intros HI H Hb.
  destruct (handle_event_cases BUF w e w' ys H) as [(fd & K & x & y & cl' & rs & HL & Hp & -> & -> & Hrs & _)|(nf & -> & -> & ->)].
  - exists beta. split; [auto|]. split; [eapply bound_update; eauto; reflexivity|]. split; [apply Nat.le_refl|].
    intros fd0 g r Hin. apply in_map_iff in Hin. destruct Hin as (r0 & E & Hin). injection E as <- <- <-.
    exists x. split; [exact HL|]. split; [reflexivity|].
    destruct e as [?|g kk|?| |]; try discriminate K; [| injection K as ->; eauto |];
      destruct Hrs as [-> _]; try (intros; discriminate); destruct Hin.
  - destruct (w_backlog w) as [|c rest]; [|destruct (Nat.eqb _ _)].
    + exists beta. repeat split; auto. intros ? ? ? [].
    + exists beta. repeat split; auto. intros ? ? ? [].
    + exists (born beta (w_nextg w) c). split; [intros g; apply born_older|].
      split; [eapply bound_accept; eauto|]. split; [cbn; auto|intros ? ? ? []].
Qed.

Lemma sweep_binding w toks beta : Inv w toks -> bound beta w -> bound beta (sweep w).
Proof. intros HI Hb fd x H. eapply Hb, alookup_sweep; eauto. Qed.

(* A batch in any order from a world that satisfies the invariant.  Every event meets the kernel contract
   [evt_ok]; [Q] is what else is promised of each, [P] what is to be shown of
   the worlds the batch passes through.  One event has to keep [P] and must not disturb [Q] of the
   events with other keys; the invariant is carried along. *)
Section BatchInv.
Variable Q : world -> event -> Prop.
Variable P : world -> list yield -> Prop.
Hypothesis step : forall w toks ys0 e w' ys,
  Inv w toks -> P w ys0 -> evt_ok w e -> Q w e -> handle_event w e = inl (w', ys) ->
  P w' (ys0 ++ ys) /\ forall e', evt_ok w e' -> Q w e' -> ev_key e' <> ev_key e -> Q w' e'.

Lemma batch_inv_induction es w toks acc w' ys :
  Inv w toks -> P w acc -> Forall (evt_ok w) es -> Forall (Q w) es -> NoDup (map ev_key es) ->
  handle_all w es acc = inl (w', ys) -> P w' ys.
Proof using All.
  intros HI HP Hok HQ Hnd H. rewrite <- (app_nil_r es) in Hnd.
  refine (proj2 (proj1 (batch_prefix BUF (fun w1 e => evt_ok w1 e /\ Q w1 e) (fun _ => True)
           (fun w1 ys1 => (exists t1, Inv w1 t1) /\ P w1 ys1) _ es [] w acc w' ys (conj (ex_intro _ toks HI) HP) _ Hnd _ H))).
  - intros w1 ys0 e w2 ys1 [[t1 I1] P1] (He & Hq) _ Hh.
    destruct (handle_inv BUF BUF_min BUF_u32 w1 t1 e w2 ys1 I1 He Hh) as [I2 _].
    destruct (step w1 t1 ys0 e w2 ys1 I1 P1 He Hq Hh) as [P2 Fr].
    split; [eauto|]. intros e' (He' & Hq') Hk. split; [|auto].
    apply (evt_ok_frame BUF w1 e w2 ys1 e' He Hh He' Hk). intros nf nf' -> ->. apply Hk. reflexivity.
  - rewrite app_nil_r, Forall_forall in *. intros e Hin. split; auto.
  - apply Forall_forall. auto.
Qed.
End BatchInv.

Theorem poll_binding w toks es w' ys beta :
  Inv w toks -> Forall (evt_ok w) es -> NoDup (map ev_key es) ->
  poll_with w es = PYield w' ys -> bound beta w ->
  exists beta', (forall g, (g < w_nextg w)%nat -> beta' g = beta g) /\ bound beta' w' /\ (w_nextg w <= w_nextg w')%nat /\
                Inv w' (ytoks ys ++ toks).
Proof.
  intros HI Hall Hnd Hp Hb. destruct (poll_with_yield BUF _ _ _ _ Hp) as (_ & w1 & Hh & ->).
  pose proof (batch_outcome BUF BUF_min BUF_u32 es w toks HI Hall Hnd) as O. rewrite Hh in O. destruct O as [I1 _].
  assert (Hbs : exists b1, (forall g, (g < w_nextg w)%nat -> b1 g = beta g) /\ bound b1 w1 /\ (w_nextg w <= w_nextg w1)%nat).
  { apply (batch_inv_induction (fun _ _ => True)
             (fun w2 _ => exists b2, (forall g, (g < w_nextg w)%nat -> b2 g = beta g) /\ bound b2 w2 /\ (w_nextg w <= w_nextg w2)%nat))
      with (es := es) (w := w) (toks := toks) (acc := []) (ys := ys); auto.
    - intros w2 t2 ys0 e w3 ys3 I2 (b2 & A2 & B2 & N2) _ _ He. split; [|auto].
      destruct (event_binding w2 t2 e w3 ys3 b2 I2 He B2) as (b3 & A3 & B3 & N3 & _).
      exists b3. split; [intros g Hg; rewrite A3 by lia; auto|]. split; [exact B3|lia].
    - exists beta. auto.
    - apply Forall_forall. auto. }
  destruct Hbs as (b1 & A1 & B1 & N1). exists b1. split; [exact A1|].
  split; [eapply sweep_binding; eauto|]. split; [exact N1|apply sweep_inv; assumption].
Qed.

Theorem respond_binding w t1 t2 fd g r w' beta :
  Inv w (t1 ++ (fd, g) :: t2) -> respond w fd r = inl w' -> bound beta w ->
  bound beta w' /\ w_nextg w' = w_nextg w /\ Inv w' (t1 ++ t2) /\
  exists x, alookup fd (w_conns w) = Some x /\ sc_gid x = g /\ sc_client x = beta g.
Proof.
  intros HI Hr Hb.
  destruct (respond_ok BUF BUF_min BUF_u32 w t1 t2 fd g r HI) as (w1 & x & Hr' & I1 & HL & Hg & _).
  rewrite Hr in Hr'. injection Hr' as <-.
  apply respond_inl in Hr. rewrite HL in Hr. subst w'.
  split; [apply (bound_update beta w _ fd x (answered x r) Hb HL); [split|]; reflexivity|]. split; [reflexivity|]. split; [exact I1|].
  exists x. rewrite <- Hg. split; [exact HL|]. split; [reflexivity|]. symmetry. eauto.
Qed.

Lemma rx_after (w w' : world) c0 cl' d c :
  w_clients w' = aupdate c0 cl' (w_clients w) -> k_rx cl' = k_rx (client_of w c0) ++ d ->
  k_rx (client_of w' c) = k_rx (client_of w c) ++
    (if Nat.eqb c0 c then match alookup c0 (w_clients w) with Some _ => d | None => [] end else []).
Proof.
  intros E Hd. rewrite (client_after w w' c0 cl' c E).
  destruct (Nat.eqb_spec c0 c) as [<-|]; [|rewrite app_nil_r; reflexivity].
  unfold client_of in *. destruct (alookup c0 (w_clients w)); [exact Hd|reflexivity].
Qed.

Lemma rx_after_conn w fd y c0 cl' d c :
  k_rx cl' = k_rx (client_of w c0) ++ d ->
  k_rx (client_of (set_client (set_conn w fd y) c0 cl') c) = k_rx (client_of w c) ++
    (if Nat.eqb c0 c then match alookup c0 (w_clients w) with Some _ => d | None => [] end else []).
Proof. exact (rx_after (set_conn w fd y) (set_client (set_conn w fd y) c0 cl') c0 cl' d c eq_refl). Qed.

(* the stream accepts a prefix of the unsent output *)
Lemma cc_write_sent x b k y sent : cc_write x b k = inl (y, sent) -> exists rest, unsent (sc_conn x) = sent ++ rest.
Proof.
  unfold cc_write.
  set (offered := match c_rbuf (sc_conn x) with Some b0 => b0
                  | None => match c_rq (sc_conn x) with r :: _ => serialize r | [] => [] end end).
  assert (Hoff : exists rest, unsent (sc_conn x) = offered ++ rest).
  { unfold unsent, offered. destruct (c_rbuf (sc_conn x)); [eauto|].
    destruct (c_rq (sc_conn x)); cbn [flat_map app]; eauto. }
  destruct Hoff as [rest Hoff]. set (n := if Nat.eqb k 0 then _ else _).
  assert (Hn : exists rest', unsent (sc_conn x) = firstn n offered ++ rest').
  { exists (skipn n offered ++ rest). rewrite app_assoc, firstn_skipn. exact Hoff. }
  destruct (sc_st x); try (intros H; injection H as _ <-; eauto; fail);
    destruct (try_write _ _) as [[c1 res] off]; destruct res as [|[]|]; intros H; inversion H; subst;
    try destruct b; eauto.
Qed.

Theorem event_delivery w e w' ys c :
  handle_event w e = inl (w', ys) ->
  exists d, k_rx (client_of w' c) = k_rx (client_of w c) ++ d /\
    (d = [] \/
     (exists fd kk x rest, e = EvOut fd kk /\ alookup fd (w_conns w) = Some x /\ sc_client x = c /\ unsent (sc_conn x) = d ++ rest) \/
     (exists nf rest, e = EvListener nf /\ w_backlog w = c :: rest /\ d = SERVER_FULL_ERROR_MESSAGE)).
Proof.
  intros H. destruct (handle_event_cases BUF w e w' ys H) as [(fd & K & x & y & cl' & rs & HL & _ & Hw & _ & _ & Hrx)|(nf & -> & _ & ->)].
  - destruct e as [?|?|g kk| |]; try discriminate K.
    1,2: exists []; split; [|auto]; subst w';
      rewrite (rx_after_conn w fd y (sc_client x) cl' [] c) by (rewrite app_nil_r; apply Hrx; intros; discriminate);
      destruct (Nat.eqb _ c); [destruct (alookup (sc_client x) _)|]; reflexivity.
    injection K as ->. cbn [Server.handle_event] in H. rewrite HL in H.
    destruct (cc_write x _ kk) as [[y1 sent]|] eqn:W; [|discriminate]. injection H as <- _.
    destruct (cc_write_sent _ _ _ _ _ W) as [rest Hu]. eexists. split; [apply rx_after_conn; reflexivity|].
    destruct (Nat.eqb_spec (sc_client x) c) as [<-|]; [|auto]. destruct (alookup (sc_client x) _); [|auto].
    right. left. exists fd, kk, x, rest. auto.
  - destruct (w_backlog w) as [|c0 rest] eqn:Bk; [exists []; rewrite app_nil_r; auto|].
    set (cl := client_of w c0).
    exists (if Nat.eqb c0 c then match alookup c0 (w_clients w) with
                                  | Some _ => if Nat.eqb (length (w_conns w)) MAX_CONNECTIONS
                                              then if k_can_receive cl then SERVER_FULL_ERROR_MESSAGE else [] else []
                                  | None => [] end else []).
    split.
    + destruct (Nat.eqb (length _) _); (eapply rx_after; [reflexivity|]); cbn [k_rx]; fold cl;
        [destruct (k_can_receive cl)|]; auto using app_nil_r.
    + destruct (Nat.eqb_spec c0 c) as [->|]; [|auto]. destruct (alookup c (w_clients w)); [|auto].
      destruct (Nat.eqb _ _); [|auto]. destruct (k_can_receive cl); [|auto]. right. right. eauto.
Qed.

Lemma sweep_client w c :
  let a := client_of (sweep w) c in let b := client_of w c in
  k_open a = k_open b /\ k_shut_wr a = k_shut_wr b /\ k_shut_rd a = k_shut_rd b /\ k_rx a = k_rx b.
Proof.
  unfold sweep, client_of. cbn [w_clients].
  generalize (filter (fun p : nat * sconn => is_done (snd p)) (w_conns w)). intros l. generalize (w_clients w).
  induction l as [|p l IH]; intros cls; cbn [fold_left]; [auto|].
  destruct (alookup (sc_client (snd p)) cls) as [cl|] eqn:L; [|apply IH].
  destruct (IH (aupdate (sc_client (snd p)) (mkCl (k_open cl) (k_shut_wr cl) (k_shut_rd cl) [] (k_rx cl) Gone) cls)) as (A1 & A2 & A3 & A4).
  rewrite A1, A2, A3, A4, alookup_aupdate. destruct (Nat.eqb_spec (sc_client (snd p)) c) as [<-|]; [|auto].
  rewrite L. auto.
Qed.

Lemma sweep_delivery w c : k_rx (client_of (sweep w) c) = k_rx (client_of w c).
Proof. apply sweep_client. Qed.

Lemma respond_delivery w fd r w' c : respond w fd r = inl w' -> client_of w' c = client_of w c.
Proof. intros H. apply respond_inl in H. destruct (alookup fd (w_conns w)); subst w'; reflexivity. Qed.

Lemma unsent_answered x r :
  unsent (sc_conn (answered x r)) = unsent (sc_conn x) ++ match sc_st x with SClosed => [] | _ => serialize r end.
Proof.
  unfold answered. cbn [sc_conn].
  destruct (sc_st x); try (symmetry; apply app_nil_r);
    rewrite (unsent_grow _ (enqueue_response (sc_conn x) r) [r] eq_refl eq_refl); cbn [flat_map]; rewrite app_nil_r; reflexivity.
Qed.

(* what responding adds to a connection's unsent output, in any world: the response, on the
   connection named by the token, if it is not closed; nothing anywhere else *)
Theorem respond_unsent w fd r w' :
  respond w fd r = inl w' ->
  forall fd0 x0, alookup fd0 (w_conns w) = Some x0 ->
    exists x1, alookup fd0 (w_conns w') = Some x1 /\ sc_gid x1 = sc_gid x0 /\ sc_client x1 = sc_client x0 /\
      unsent (sc_conn x1) = unsent (sc_conn x0) ++
        (if Nat.eqb fd0 fd then match sc_st x0 with SClosed => [] | _ => serialize r end else []).
Proof.
  intros H fd0 x0 H0. apply respond_inl in H. rewrite Nat.eqb_sym.
  destruct (Nat.eqb_spec fd fd0) as [->|Hne].
  - rewrite H0 in H. subst w'. exists (answered x0 r). cbn [set_conn w_conns].
    rewrite (alookup_update_same _ _ _ _ H0), unsent_answered. auto.
  - exists x0. rewrite app_nil_r. split; [|auto].
    destruct (alookup fd (w_conns w)); subst w'; [cbn [set_conn w_conns]; rewrite alookup_update_other by exact Hne|]; exact H0.
Qed.

(* what reading adds to a connection's unsent output, in any world: replies the server generated
   from that connection's own input *)
Theorem read_unsent w toks fd kk w' ys :
  Inv w toks -> evt_ok w (EvIn fd kk) -> handle_event w (EvIn fd kk) = inl (w', ys) ->
  exists x y gen, alookup fd (w_conns w) = Some x /\ alookup fd (w_conns w') = Some y /\
    unsent (sc_conn y) = unsent (sc_conn x) ++ flat_map serialize gen /\ Forall server_generated gen /\
    forall fd0, fd0 <> fd -> alookup fd0 (w_conns w') = alookup fd0 (w_conns w).
Proof.
  intros HI Hok H.
  destruct (read_event BUF BUF_min BUF_u32 w toks fd kk w' ys HI Hok H) as (x & y & cl' & gen & HL & -> & _ & _ & _ & Hrq & Hrb & Fg & _).
  exists x, y, gen. cbn [set_client set_conn w_conns].
  split; [exact HL|]. split; [eapply alookup_update_same; eauto|]. split; [apply unsent_grow; assumption|].
  split; [exact Fg|]. intros fd0 Hne. apply alookup_update_other. auto.
Qed.

(* one step of a history: a poll with any contract-abiding batch in any order, a response for a
   token the application holds, or anything the clients / the environment do (send, close, shut down,
   read, connect, signal the kill switch, change the limit): such a step leaves the server's
   connection table and instance counter alone *)
Inductive hstep : world * list tok -> world * list tok -> Prop :=
| HPoll w toks es w' ys :
    Forall (evt_ok w) es -> NoDup (map ev_key es) -> ~ In KKill (map ev_key es) ->
    poll_with w es = PYield w' ys -> hstep (w, toks) (w', ytoks ys ++ toks)
| HRespond w t1 t2 fd g r w' :
    respond w fd r = inl w' -> hstep (w, t1 ++ (fd, g) :: t2) (w', t1 ++ t2)
| HEnv w toks w' :
    w_conns w' = w_conns w -> w_nextg w' = w_nextg w -> hstep (w, toks) (w', toks).

(* a history, newest state first *)
Inductive history : list (world * list tok) -> Prop :=
| H0 : history [(world0, [])]
| HS s s' tr : history (s :: tr) -> hstep s s' -> history (s' :: s :: tr).

(* C07: there is ONE assignment of clients to connection instances that is right at every moment
   of the history: whenever instance g is in the table -- under whatever descriptor number, reused or
   not -- it serves client beta g.  The invariant holds throughout, so (C07_token_inv) a token (fd, g)
   held at any moment names a table entry whose instance is g, i.e. client beta g. *)
Theorem one_binding tr : history tr ->
  exists beta, Forall (fun s => bound beta (fst s) /\ Inv (fst s) (snd s)) tr /\
               match tr with s :: _ => Forall (fun s0 => (w_nextg (fst s0) <= w_nextg (fst s))%nat) tr | [] => True end.
Proof.
  induction 1 as [|s s' tr Htr IH Hstep].
  - exists (fun _ => 0%nat). split; [constructor; [|constructor]|constructor; [cbn; lia|constructor]].
    split; [intros fd x H; discriminate|apply Inv_world0; assumption].
  - destruct IH as (beta & Hall & Hmono). inversion Hall as [|? ? [Hb HI] Hrest]; subst.
    assert (Step : exists beta', (forall g, (g < w_nextg (fst s))%nat -> beta' g = beta g) /\ bound beta' (fst s') /\
                                 Inv (fst s') (snd s') /\ (w_nextg (fst s) <= w_nextg (fst s'))%nat).
    { inversion Hstep as [w toks es w' ys Hok Hnd Hnk Hp|w t1 t2 fd g r w' Hr|w toks w' E1 E2]; subst; cbn [fst snd] in *.
      - destruct (poll_binding w toks es w' ys beta HI Hok Hnd Hp Hb) as (b' & Ag & Bd & Nx & I'). exists b'. auto.
      - destruct (respond_binding w t1 t2 fd g r w' beta HI Hr Hb) as (Bd & Nx & I' & _). exists beta. split; [auto|]. split; [exact Bd|]. split; [exact I'|lia].
      - exists beta. split; [auto|]. split; [intros fd x HL; rewrite E1 in HL; eauto|]. split; [eapply Inv_env; eauto|lia]. }
    destruct Step as (beta' & Hag & Hb' & HI' & Hn).
    (* the earlier states keep their entries: those carry instance numbers below the counter of [s] *)
    exists beta'. rewrite Forall_forall in Hall, Hmono.
    split; (constructor; [auto; lia|]); apply Forall_forall; intros s0 Hin.
    + destruct (Hall s0 Hin) as [Hb0 HI0]. split; [|exact HI0].
      exact (bound_older beta beta' (fst s0) (w_nextg (fst s)) (snd s0) HI0 (Hmono s0 Hin) Hag Hb0).
    + specialize (Hmono s0 Hin). lia.
Qed.

Lemma canonical_hstep w toks w' ys :
  Inv w toks -> w_killed w = false -> poll BUF w = PYield w' ys -> hstep (w, toks) (w', ytoks ys ++ toks).
Proof.
  intros HI Hk P. destruct (ready_events_ok BUF BUF_min BUF_u32 w toks HI) as [A1 A2].
  apply HPoll with (es := ready_events w); auto. exact (no_kill_key w Hk).
Qed.

End Prov.

(* non-vacuity: a history in which the application comes to hold a token *)
Example history_example : exists tr w, history 1024 ((w, [(1%nat, 0%nat)]) :: tr).
Proof.
  pose proof wB_ok as [CB IB]. pose proof poll_wB as [rq PB].
  exists [(wB, []); (wA, []); (world0, [])], wC.
  apply HS; [apply HS; [apply HS; [apply H0|]|]|].
  - apply HEnv; reflexivity.
  - apply (canonical_hstep 1024 BUF1024_min BUF1024_u32 wA [] wB []); [exact wA_inv|reflexivity|exact poll_wA].
  - apply (canonical_hstep 1024 BUF1024_min BUF1024_u32 wB [] wC _ IB (calm_nokill _ CB) PB).
Qed.
