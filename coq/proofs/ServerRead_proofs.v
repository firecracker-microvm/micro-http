(* The server's read path equals the specification parser: one IN event on a connection does to the
   connection's parser state, its unsent output and the application's yield exactly what the
   specification parser (ConnSpec.runT) does on carry ++ the bytes read.  This carries the
   connection-level theorems (C02 grammar, C04 limits and the 400 text, C13 interim responses, C08
   exactly-once) to HttpServer::requests. *)
From MH Require Export proofs.Progress_proofs.

Section SR.
Variable BUF : nat.
Hypothesis BUF_min : (2 <= BUF)%nat.
Hypothesis BUF_u32 : N.of_nat BUF < U32_LIMIT.
Notation CInv := (CInv BUF).
Notation Inv := (Inv BUF).

(* what connection [x], its parser at phase [ph], has become ([y]) and has yielded ([ys]) after reading [d] *)
Definition read_outcome (fd : nat) (x : sconn) (ph : phase) (d : bytes) (y : sconn) (ys : list yield) : Prop :=
  let c := sc_conn x in
  match runT BUF (c_pmax c) ph (c_win c ++ d) [] with
  | RMore ph' carry outs =>
      CInv (sc_conn y) ph' /\ c_win (sc_conn y) = carry /\
      unsent (sc_conn y) = unsent c ++ flat_map serialize (conts_of outs) /\
      ys = map (fun r => (fd, sc_gid x, r)) (c_parsed c ++ reqs_of outs (c_files c)) /\
      c_parsed (sc_conn y) = [] /\ c_files (sc_conn y) = files_after outs (c_files c) /\ c_pmax (sc_conn y) = c_pmax c
  | RErr outs e =>
      CInv (sc_conn y) PLine /\ c_win (sc_conn y) = [] /\
      unsent (sc_conn y) = unsent c ++ flat_map serialize (conts_of outs ++ [bad_request_response e]) /\
      ys = [] /\
      c_parsed (sc_conn y) = [] /\ c_files (sc_conn y) = [] /\ c_pmax (sc_conn y) = c_pmax c
  | ROutOfFuel => False
  end.

Theorem server_read_exact w toks fd kk w' ys x ph :
  Inv w toks -> alookup fd (w_conns w) = Some x -> CInv (sc_conn x) ph ->
  k_tosrv (client_of w (sc_client x)) <> [] ->
  handle_event BUF w (EvIn fd kk) = inl (w', ys) ->
  let c := sc_conn x in
  let t := k_tosrv (client_of w (sc_client x)) in
  let d := firstn (read_amount kk (BUF - length (c_win c)) (length t)) t in
  d <> [] /\
  exists y, alookup fd (w_conns w') = Some y /\ sc_gid y = sc_gid x /\ sc_client y = sc_client x /\
    k_tosrv (client_of w' (sc_client x)) = skipn (length d) t /\
  match runT BUF (c_pmax c) ph (c_win c ++ d) [] with
  | RMore ph' carry outs =>
      CInv (sc_conn y) ph' /\ c_win (sc_conn y) = carry /\
      unsent (sc_conn y) = unsent c ++ flat_map serialize (conts_of outs) /\
      ys = map (fun r => (fd, sc_gid x, r)) (c_parsed c ++ reqs_of outs (c_files c)) /\
      c_parsed (sc_conn y) = [] /\ c_files (sc_conn y) = files_after outs (c_files c) /\ c_pmax (sc_conn y) = c_pmax c
  | RErr outs e =>
      CInv (sc_conn y) PLine /\ c_win (sc_conn y) = [] /\
      unsent (sc_conn y) = unsent c ++ flat_map serialize (conts_of outs ++ [bad_request_response e]) /\
      ys = [] /\
      c_parsed (sc_conn y) = [] /\ c_files (sc_conn y) = [] /\ c_pmax (sc_conn y) = c_pmax c
  | ROutOfFuel => False
  end.
Proof.
  intros HI HL I Hne H. cbn zeta. change (firstn _ _) with (in_data BUF w x kk).
  destruct (inv_cc _ _ _ HI _ _ HL) as [Hst _].
  destruct (in_data_fits BUF BUF_min BUF_u32 w x kk ph I) as [Hd _]. specialize (Hd Hne).
  destruct (handle_in BUF BUF_min BUF_u32 w fd kk x ph HL Hst I)
    as [O|(y & rs & gen & E & Hg & Hc & _ & Hrq & Hrb & Hpm & _ & M)]; [congruence|].
  rewrite E in H. injection H as <- <-. split; [exact Hd|]. exists y.
  split; [exact (alookup_update_same _ _ _ _ HL)|].
  split; [exact Hg|]. split; [exact Hc|]. split.
  - (* the client has a record, since it has sent something *)
    unfold client_of in Hne. destruct (alookup (sc_client x) (w_clients w)) as [cl|] eqn:Hcl; [|destruct (Hne eq_refl)].
    rewrite (client_of_update_same _ _ _ _ cl _ Hcl). reflexivity.
  - destruct (in_data BUF w x kk) as [|b d]; [destruct (Hd eq_refl)|]. destruct M as (_ & _ & Hp & M).
    pose proof (unsent_grow _ _ gen Hrq Hrb) as Hu.
    destruct (runT BUF (c_pmax (sc_conn x)) ph (c_win (sc_conn x) ++ b :: d) []) as [ph' carry outs|outs e|]; [| |exact M];
      destruct M as (-> & -> & I' & Hw & Hf); auto 8.
Qed.

End SR.

(* the 400 reply to an over-limit request names both numbers *)
Lemma reply_names_both l n :
  rs_body (bad_request_response (SizeLimitExceeded l n)) =
  Some ((B"{ ""error"": ""Request payload with size ") ++ dec n ++ B" is larger than the limit of " ++ dec l
        ++ B" allowed by server." ++ [LF] ++ B"All previous unanswered requests will be dropped."" }").
Proof.
  cbn [bad_request_response display_req_err apply_op rs_body]. rewrite <- !app_assoc. reflexivity.
Qed.
