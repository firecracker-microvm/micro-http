(* Response serialisation: shape, the Content-Length rule, and the round trip through an
   independent reader for any concatenation of responses, and Response::write_all against any sink (C05). *)
From MH Require Export model.Response model.Reader proofs.Bytes_proofs.

Definition digit_ok (d : N) : Prop := 48 <= d <= 57.

(* reading a digit string continues the positional sum *)
Lemma digits_value_app ds rest : Forall digit_ok ds -> forall a,
  digits_value a (ds ++ rest) = digits_value (fold_left (fun a d => a * 10 + (d - 48)) ds a) rest.
Proof.
  induction 1 as [|d ds [H1 H2] _ IH]; intros a; [reflexivity|]. cbn [app digits_value fold_left].
  unfold is_digit, in_range. rewrite (proj2 (N.leb_le _ _) H1), (proj2 (N.leb_le _ _) H2). apply IH.
Qed.

(* dec_fuel pushes the digits of n, most significant first, in front of acc *)
Lemma dec_fuel_spec f : forall n acc, n < 10 ^ N.of_nat (S f) ->
  exists ds, dec_fuel (S f) n acc = ds ++ acc /\ ds <> [] /\ Forall digit_ok ds /\
             fold_left (fun a d => a * 10 + (d - 48)) ds 0 = n.
Proof.
  assert (Small : forall n acc, n < 10 ->
    exists ds, (48 + n) :: acc = ds ++ acc /\ ds <> [] /\ Forall digit_ok ds /\
               fold_left (fun a d => a * 10 + (d - 48)) ds 0 = n).
  { intros n acc H. exists [48 + n]. repeat split; [discriminate| |cbn [fold_left]; lia].
    constructor; [unfold digit_ok; lia|constructor]. }
  induction f as [|f IH]; intros n acc Hn; cbn [dec_fuel]; destruct (N.ltb_spec n 10) as [Lt|Ge];
    try (apply Small; exact Lt).
  - change (10 ^ N.of_nat 1) with 10 in Hn. lia.
  - assert (Hq : n / 10 < 10 ^ N.of_nat (S f)).
    { rewrite Nat2N.inj_succ, N.pow_succ_r' in Hn. apply N.div_lt_upper_bound; lia. }
    destruct (IH (n / 10) ((48 + n mod 10) :: acc) Hq) as (ds & Hd & Hne & Hdig & Hval).
    pose proof (N.mod_lt n 10 ltac:(discriminate)) as Hm. pose proof (N.div_mod n 10 ltac:(discriminate)) as Hdm.
    revert Hm Hdm Hd Hval. generalize (n mod 10) (n / 10). intros m q Hm Hdm Hd Hval.
    exists (ds ++ [48 + m]). split; [rewrite <- app_assoc; exact Hd|].
    split; [destruct ds; discriminate|]. split.
    + apply Forall_app. split; [exact Hdig|]. constructor; [unfold digit_ok; lia|constructor].
    + rewrite fold_left_app, Hval. cbn [fold_left]. lia.
Qed.

Lemma dec_fuel_enough n : n < 10 ^ N.of_nat (S (N.to_nat (N.log2 n))).
Proof.
  rewrite Nat2N.inj_succ, N2Nat.id.
  destruct n as [|p]; [cbn; lia|].
  pose proof (N.log2_spec (N.pos p) ltac:(lia)) as [_ H].
  eapply N.lt_le_trans; [exact H|]. apply N.pow_le_mono_l. lia.
Qed.

Lemma dec_spec n :
  dec n <> [] /\ Forall digit_ok (dec n) /\ digits_value 0 (dec n) = Some n.
Proof.
  unfold dec. destruct (dec_fuel_spec _ n [] (dec_fuel_enough n)) as (ds & -> & Hne & Hdig & Hval).
  rewrite app_nil_r. repeat split; auto.
  rewrite <- (app_nil_r ds), (digits_value_app ds [] Hdig), Hval. reflexivity.
Qed.

Definition lf_free (l : bytes) : Prop := ~ In LF l.

Lemma lf_free_app a b : lf_free a -> lf_free b -> lf_free (a ++ b).
Proof. intros Ha Hb H. apply in_app_or in H. destruct H; auto. Qed.

(* for literals: decided by evaluation *)
Lemma lf_free_lit l : forallb (fun b => negb (b =? LF)) l = true -> lf_free l.
Proof.
  intros H Hin. rewrite forallb_forall in H. specialize (H _ Hin). rewrite N.eqb_refl in H. discriminate.
Qed.

Lemma raw_method_lf m : lf_free (raw_method m).
Proof. destruct m; apply lf_free_lit; reflexivity. Qed.
Lemma raw_version_lf v : lf_free (raw_version v).
Proof. destruct v; apply lf_free_lit; reflexivity. Qed.
Lemma raw_status_lf s : lf_free (raw_status s).
Proof. destruct s; apply lf_free_lit; reflexivity. Qed.
Lemma media_str_lf t : lf_free (media_str t).
Proof. destruct t; apply lf_free_lit; reflexivity. Qed.

Lemma join_methods_lf ms : lf_free (join_methods ms).
Proof.
  induction ms as [|m [|m' ms] IH]; [intros []|apply raw_method_lf|].
  apply lf_free_app; [apply raw_method_lf|]. apply lf_free_app; [apply lf_free_lit; reflexivity|exact IH].
Qed.

Lemma decZ_of_N n : decZ (Z.of_N n) = dec n.
Proof. destruct n; reflexivity. Qed.

Lemma decZ_nonneg_lf n : lf_free (decZ (Z.of_N n)).
Proof.
  rewrite decZ_of_N.
  destruct (dec_spec n) as (_ & H & _). intros Hin. rewrite Forall_forall in H.
  specialize (H _ Hin). unfold digit_ok, LF in H. lia.
Qed.

Lemma find_crlf_at l t : lf_free l -> find_crlf (l ++ CR :: LF :: t) = Some (length l).
Proof.
  unfold find_crlf. induction l as [|x l IH]; intros H.
  - reflexivity.
  - cbn [app find length].
    assert (P : prefixb CRLF (x :: l ++ CR :: LF :: t) = false).
    { unfold CRLF. cbn [prefixb]. destruct (N.eqb CR x) eqn:E; [|reflexivity]. cbn [andb].
      destruct l as [|y l']; cbn [app prefixb]; [reflexivity|].
      destruct (N.eqb_spec LF y) as [<-|]; [|reflexivity]. exfalso. apply H. right. left. reflexivity. }
    rewrite P. rewrite IH; [reflexivity|]. intros Hin. apply H. right. exact Hin.
Qed.

Definition clen_lines (r : response) : list bytes :=
  match rs_content_length r with
  | Some n =>
      [raw_header HContentType ++ [COLON; SP] ++ media_str (rs_content_type r);
       raw_header HContentLength ++ [COLON; SP] ++ decZ n]
      ++ (if rs_accept_encoding r then [raw_header HAcceptEncoding ++ [COLON; SP] ++ B"identity"] else [])
  | None => []
  end.

Definition header_lines (r : response) : list bytes :=
  [raw_header HServer ++ [COLON; SP] ++ rs_server r; B"Connection: keep-alive"]
  ++ (match rs_allow r with [] => [] | ms => [B"Allow: " ++ join_methods ms] end)
  ++ (if rs_deprecation r then [B"Deprecation: true"] else [])
  ++ clen_lines r.

Definition with_crlf (ls : list bytes) : bytes := flat_map (fun l => l ++ CRLF) ls.

Lemma with_crlf_cons l ls : with_crlf (l :: ls) = l ++ CRLF ++ with_crlf ls.
Proof. symmetry. apply app_assoc. Qed.

Lemma with_crlf_length ls : (length ls <= length (with_crlf ls))%nat.
Proof. induction ls; [apply le_n|]. rewrite with_crlf_cons, !app_length. cbn. lia. Qed.

Lemma header_block_lines r : header_block r = with_crlf (header_lines r) ++ CRLF.
Proof.
  unfold header_block, header_lines, clen_lines, allow_line, deprecation_line.
  (* the literals are hidden first: rewriting under them is what costs *)
  generalize (raw_header HServer) (raw_header HContentType) (raw_header HContentLength)
    (raw_header HAcceptEncoding) (B"Connection: keep-alive") (B"Allow: ") (B"Deprecation: true")
    (B"identity") [COLON; SP]. intros.
  destruct (rs_allow r); destruct (rs_deprecation r); destruct (rs_content_length r);
    try destruct (rs_accept_encoding r); unfold with_crlf; cbn [flat_map app];
    rewrite <- ?app_assoc; reflexivity.
Qed.

(* C05_shape: the serialised bytes, spelled out *)
Lemma serialize_shape r :
  serialize r =
  raw_version (rs_version r) ++ [SP] ++ raw_status (rs_status r) ++ [SP] ++ CRLF
  ++ with_crlf (header_lines r) ++ CRLF
  ++ match rs_body r with Some b => b | None => [] end.
Proof.
  unfold serialize, status_line. rewrite header_block_lines. rewrite <- !app_assoc. reflexivity.
Qed.

Lemma read_header_lines_ok ls : forall fuel t acc,
  Forall (fun l => l <> [] /\ lf_free l) ls -> (length ls < fuel)%nat ->
  read_header_lines fuel (with_crlf ls ++ CR :: LF :: t) acc = Some (rev acc ++ ls, t).
Proof.
  induction ls as [|l ls IH]; intros [|fuel] t acc Hall Hf; try (cbn in Hf; lia).
  - cbn. rewrite app_nil_r. reflexivity.
  - inversion Hall as [|? ? [Hne Hlf] Hrest]; subst.
    rewrite with_crlf_cons, <- !app_assoc. cbn [read_header_lines CRLF app].
    rewrite (find_crlf_at l _ Hlf). destruct (length l) eqn:E; [destruct l; [congruence|discriminate]|].
    rewrite <- E, skipn_app_plus, firstn_app_exact. cbn [skipn].
    rewrite IH; [|exact Hrest|cbn in Hf; lia]. cbn [rev]. rewrite <- app_assoc. reflexivity.
Qed.

Definition framing_ok (r : response) : Prop :=
  lf_free (rs_server r) /\
  match rs_content_length r with
  | Some n => n = Z.of_N (lenN (match rs_body r with Some b => b | None => [] end))
  | None => match rs_body r with Some b => b = [] | None => True end
  end.

(* a header line made of a literal and a part free of LF *)
Lemma lit_line a x : a <> [] -> forallb (fun b => negb (b =? LF)) a = true -> lf_free x ->
  a ++ x <> [] /\ lf_free (a ++ x).
Proof.
  intros Ha Hl Hx. split; [destruct a; [congruence|discriminate]|]. apply lf_free_app; [apply lf_free_lit|]; assumption.
Qed.

Lemma header_lines_ok r : framing_ok r -> Forall (fun l => l <> [] /\ lf_free l) (header_lines r).
Proof.
  intros [Hs Hc]. unfold header_lines, clen_lines. repeat (apply Forall_app; split).
  - apply Forall_cons; [|apply Forall_cons; [|apply Forall_nil]].
    + apply (lit_line (B"Server: ") (rs_server r)); [discriminate|reflexivity|exact Hs].
    + apply (lit_line (B"Connection: keep-alive") []); [discriminate|reflexivity|intros []].
  - destruct (rs_allow r) as [|m ms]; [apply Forall_nil|]. apply Forall_cons; [|apply Forall_nil].
    apply lit_line; [discriminate|reflexivity|apply join_methods_lf].
  - destruct (rs_deprecation r); [|apply Forall_nil]. apply Forall_cons; [|apply Forall_nil].
    apply (lit_line (B"Deprecation: true") []); [discriminate|reflexivity|intros []].
  - destruct (rs_content_length r) as [n|]; [subst n|apply Forall_nil]. apply Forall_app; split.
    + apply Forall_cons; [|apply Forall_cons; [|apply Forall_nil]].
      * apply (lit_line (B"Content-Type: ") (media_str _)); [discriminate|reflexivity|apply media_str_lf].
      * apply (lit_line (B"Content-Length: ") (decZ _)); [discriminate|reflexivity|apply decZ_nonneg_lf].
    + destruct (rs_accept_encoding r); [|apply Forall_nil]. apply Forall_cons; [|apply Forall_nil].
      apply (lit_line (B"Accept-Encoding: identity") []); [discriminate|reflexivity|intros []].
Qed.

Lemma cl_skip l rest : prefixb CL_PREFIX l = false -> content_length_of (l :: rest) = content_length_of rest.
Proof. intros H. cbn [content_length_of]. rewrite H. reflexivity. Qed.

Lemma cl_skip_app pre rest : Forall (fun l => prefixb CL_PREFIX l = false) pre ->
  content_length_of (pre ++ rest) = content_length_of rest.
Proof.
  induction pre as [|l pre IH]; intros H; [reflexivity|]. inversion H; subst.
  rewrite <- app_comm_cons. rewrite cl_skip by assumption. apply IH. assumption.
Qed.

Lemma cl_tail r :
  (match rs_content_length r with
   | Some n => n = Z.of_N (lenN (match rs_body r with Some b => b | None => [] end))
   | None => True end) ->
  content_length_of (clen_lines r) =
  match rs_content_length r with
  | Some _ => ClValue (lenN (match rs_body r with Some b => b | None => [] end))
  | None => ClAbsent
  end.
Proof.
  intros Hc. unfold clen_lines.
  destruct (rs_content_length r) as [n|]; [|reflexivity]. subst n.
  rewrite <- !app_comm_cons, app_nil_l.
  rewrite cl_skip by (destruct (rs_content_type r); reflexivity).
  set (n := lenN _).
  rewrite decZ_of_N. destruct (dec_spec n) as (Hne & _ & Hv).
  cbn [content_length_of].
  assert (P4 : forall v, prefixb CL_PREFIX (raw_header HContentLength ++ COLON :: SP :: v) = true) by reflexivity.
  rewrite P4.
  assert (S4 : forall v, skipn (length CL_PREFIX) (raw_header HContentLength ++ COLON :: SP :: v) = v) by reflexivity.
  rewrite S4. rewrite app_nil_l.
  destruct (dec n) eqn:E; [congruence|]. rewrite Hv. reflexivity.
Qed.

Lemma content_length_of_lines r : framing_ok r ->
  content_length_of (header_lines r) =
  match rs_content_length r with
  | Some _ => ClValue (lenN (match rs_body r with Some b => b | None => [] end))
  | None => ClAbsent
  end.
Proof.
  intros [Hs Hc]. unfold header_lines. rewrite !app_assoc. rewrite cl_skip_app.
  - apply cl_tail. destruct (rs_content_length r); auto.
  - repeat (apply Forall_app; split).
    + repeat constructor.
    + destruct (rs_allow r); repeat constructor.
    + destruct (rs_deprecation r); repeat constructor.
Qed.

Definition view (r : response) : bytes * list bytes * bytes :=
  (raw_version (rs_version r) ++ [SP] ++ raw_status (rs_status r) ++ [SP],
   header_lines r,
   match rs_body r with Some b => b | None => [] end).

(* the reader on a status line, header lines and a blank line, whatever follows *)
Lemma read_framed sl ls rest : lf_free sl -> Forall (fun l => l <> [] /\ lf_free l) ls ->
  read_response (sl ++ CRLF ++ with_crlf ls ++ CRLF ++ rest) =
  match content_length_of ls with
  | ClBad => None
  | ClAbsent => Some ((sl, ls, []), rest)
  | ClValue n =>
      if lenN rest <? n then None
      else Some ((sl, ls, firstn (N.to_nat n) rest), skipn (N.to_nat n) rest)
  end.
Proof.
  intros Hsl Hls. unfold read_response. cbn [CRLF app]. rewrite (find_crlf_at sl _ Hsl).
  rewrite skipn_app_plus, firstn_app_exact. cbn [skipn]. rewrite read_header_lines_ok; [reflexivity|exact Hls|].
  pose proof (with_crlf_length ls). rewrite !app_length. cbn [length]. rewrite app_length. lia.
Qed.

(* the round trip for one response followed by anything *)
Theorem read_serialize r t : framing_ok r -> read_response (serialize r ++ t) = Some (view r, t).
Proof.
  intros Hok. rewrite serialize_shape. unfold view.
  set (body := match rs_body r with Some b => b | None => [] end).
  replace ((_ ++ _) ++ t) with ((raw_version (rs_version r) ++ [SP] ++ raw_status (rs_status r) ++ [SP])
    ++ CRLF ++ with_crlf (header_lines r) ++ CRLF ++ body ++ t) by (rewrite <- !app_assoc; reflexivity).
  rewrite read_framed; [|repeat apply lf_free_app; try (apply lf_free_lit; reflexivity)|apply header_lines_ok; exact Hok].
  2:{ apply raw_version_lf. } 2:{ apply raw_status_lf. }
  rewrite (content_length_of_lines r Hok). destruct Hok as [_ Hc]. fold body in Hc |- *.
  destruct (rs_content_length r).
  - rewrite firstn_lenN, skipn_lenN. destruct (N.ltb_spec (lenN (body ++ t)) (lenN body)) as [Lt|]; [|reflexivity].
    unfold lenN in Lt. rewrite app_length in Lt. lia.
  - replace body with (@nil N) by (unfold body in *; destruct (rs_body r); auto). reflexivity.
Qed.

(* any concatenation of responses on a keep-alive stream *)
Theorem read_concat rs : forall fuel, Forall framing_ok rs -> (length rs < fuel)%nat ->
  read_responses fuel (flat_map serialize rs) = Some (map view rs).
Proof.
  induction rs as [|r rs IH]; intros [|fuel] Hall Hf; try reflexivity; [cbn in Hf; lia|].
  inversion Hall; subst. cbn [flat_map map read_responses].
  destruct (serialize r ++ flat_map serialize rs) eqn:E.
  { exfalso. apply app_eq_nil in E. destruct E as [E _]. revert E. rewrite serialize_shape.
    destruct (rs_version r); discriminate. }
  rewrite <- E. rewrite read_serialize by assumption. rewrite IH; [reflexivity|assumption|cbn in Hf; lia].
Qed.

Fixpoint last_body (prog : list builder_op) (cur : option bytes) : option bytes :=
  match prog with
  | [] => cur
  | SetBody b :: r => last_body r (Some b)
  | _ :: r => last_body r cur
  end.

Definition no_explicit_length (o : builder_op) : Prop :=
  match o with SetContentLength _ => False | _ => True end.

Lemma fold_body_length prog : forall r, Forall no_explicit_length prog ->
  rs_body (fold_left apply_op prog r) = last_body prog (rs_body r) /\
  rs_content_length (fold_left apply_op prog r) =
    match last_body prog None with
    | Some b => Some (as_i32 (lenN b))
    | None => rs_content_length r
    end.
Proof.
  induction prog as [|o prog IH]; intros r Hall; cbn [fold_left last_body]; [auto|].
  inversion Hall as [|? ? Ho Hr]; subst.
  destruct (IH (apply_op r o) Hr) as (Hb & Hl). rewrite Hb, Hl.
  destruct o; cbn in Ho |- *; try contradiction; auto.
  split; [reflexivity|].
  assert (G : forall p c, last_body p (Some c) = match last_body p None with Some x => Some x | None => Some c end).
  { induction p as [|o' p' IHp]; intros c; cbn [last_body]; [reflexivity|]. destruct o'; try apply IHp.
    rewrite (IHp b0). destruct (last_body p' None); reflexivity. }
  rewrite G. destruct (last_body prog None); reflexivity.
Qed.

(* Content-Length present <-> status not in {100, 204} or a body was set; its value is the
   length of the last body set, else 0 *)
Theorem length_rule v s prog : Forall no_explicit_length prog ->
  let r := build v s prog in
  rs_body r = last_body prog None /\
  rs_content_length r =
    match last_body prog None with
    | Some b => Some (as_i32 (lenN b))
    | None => match s with Continue | NoContent => None | _ => Some 0%Z end
    end.
Proof.
  intros Hall. cbn zeta. unfold build.
  destruct (fold_body_length prog (response_new v s) Hall) as (Hb & Hl). split; [exact Hb|].
  rewrite Hl. destruct (last_body prog None); [reflexivity|]. destruct s; reflexivity.
Qed.

Lemma as_i32_small n : n < 2147483648 -> as_i32 n = Z.of_N n.
Proof.
  intros H. unfold as_i32.
  rewrite Z.mod_small by lia. destruct (Z.of_N n <? 2147483648)%Z eqn:L; [reflexivity|]. apply Z.ltb_ge in L. lia.
Qed.

Fixpoint last_server (prog : list builder_op) (cur : bytes) : bytes :=
  match prog with
  | [] => cur
  | SetServer s :: r => last_server r s
  | _ :: r => last_server r cur
  end.

Lemma fold_server prog : forall r, rs_server (fold_left apply_op prog r) = last_server prog (rs_server r).
Proof.
  induction prog as [|o prog IH]; intros r; cbn [fold_left last_server]; [reflexivity|].
  rewrite IH. destruct o; reflexivity.
Qed.

(* every response built through the seven builder calls, with bodies below 2^31 bytes and a
   server identity free of line feeds, is framed consistently *)
Theorem build_framing_ok v s prog :
  Forall no_explicit_length prog ->
  (forall b, last_body prog None = Some b -> lenN b < 2147483648) ->
  lf_free (last_server prog DEFAULT_SERVER) ->
  framing_ok (build v s prog).
Proof.
  intros Hall Hsmall Hsrv. destruct (length_rule v s prog Hall) as [Hb Hl].
  split.
  - unfold build. rewrite fold_server. exact Hsrv.
  - rewrite Hl, Hb. destruct (last_body prog None) as [b|] eqn:E.
    + rewrite as_i32_small by (apply Hsmall; reflexivity). reflexivity.
    + destruct s; cbn; auto.
Qed.

(* write_all hands the sink exactly the data, however the sink splits the writes *)
Lemma write_all_spec script : forall data acc acc' script',
  write_all script data acc = Some (acc', script') -> acc' = acc ++ data.
Proof.
  induction script as [|e sc IH]; intros data acc acc' script'.
  - destruct data; cbn; [intros H; inversion H; rewrite app_nil_r; reflexivity|discriminate].
  - destruct data as [|d data'] eqn:Ed; [cbn; intros H; inversion H; rewrite app_nil_r; reflexivity|].
    cbn [write_all]. destruct e as [k| |].
    + destruct k as [|k]; [discriminate|]. intros H. apply IH in H. rewrite H.
      rewrite <- app_assoc. rewrite firstn_skipn. reflexivity.
    + intros H. apply IH in H. exact H.
    + discriminate.
Qed.
