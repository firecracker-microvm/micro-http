(* The executable connection interpreter of run/Run.v (domain 6 of the correspondence run: a scripted stream
   with reads of any size, failing reads, short / interrupted / failing writes, enqueues, clears, limit
   changes) never leaves the connection invariant.  That the reads the scripted stream produces are within the
   recvmsg contract is a step inside the proof of take_step_KI, not a statement. *)
From MH Require Export proofs.Total_proofs run.Run.

Section RC.
Variable BUF : nat.
Hypothesis BUF_min : (2 <= BUF)%nat.
Hypothesis BUF_u32 : N.of_nat BUF < U32_LIMIT.
Notation CInv := (CInv BUF).

(* the interpreter's state holds a connection in some CInv *)
Definition KI (k : cst) : Prop := exists ph, CInv (k_conn k) ph.

Lemma KI_same k c' rest nfd : KI k -> parser_same (k_conn k) c' -> KI (mkCst c' rest nfd).
Proof. intros [ph I] PS. exists ph. eapply CInv_parser_same; eauto. Qed.

Lemma drain_parser_same : forall fuel c acc, parser_same c (fst (drain fuel c acc)).
Proof.
  induction fuel as [|f IH]; intros c acc; cbn [drain]; [repeat split|].
  unfold pop_parsed_request. destruct (c_parsed c) as [|r q]; [repeat split|]. exact (IH _ _).
Qed.

Lemma read_line_KI hold pre k ev rest' nfd' :
  KI k -> ev_ok BUF (k_conn k) ev -> KI (fst (fst (read_line BUF hold pre k ev rest' nfd'))).
Proof.
  intros [ph I] Hok. unfold read_line.
  destruct (try_read_total BUF BUF_min BUF_u32 (k_conn k) ph ev I Hok) as (c1 & res & sys & ph1 & T & I1 & _).
  rewrite T. set (fu := if hold then O else S (length (c_parsed c1))).
  pose proof (drain_parser_same fu c1 []) as PS. destruct (drain fu c1 []) as [c2 reqs].
  apply (KI_same (mkCst c1 [] O)); [exists ph1; exact I1|exact PS].
Qed.

Lemma write_line_KI pre k ev : KI k -> KI (fst (write_line pre k ev)).
Proof.
  intros HK. unfold write_line. pose proof (try_write_parser_same (k_conn k) ev) as PS.
  destruct (try_write (k_conn k) ev) as [[c1 res] off]. exact (KI_same _ _ _ _ HK PS).
Qed.

(* the proof shows first that the read result the scripted stream produces is within the recvmsg contract *)
Lemma take_step_KI hold pre k n nf : KI k -> KI (fst (fst (take_step BUF hold pre k n nf))).
Proof.
  intros HK. unfold take_step.
  destruct (BUF <=? length (c_win (k_conn k)))%nat eqn:E; [apply read_line_KI; [exact HK|exact Logic.I]|].
  apply Nat.leb_gt in E.
  set (kk := Nat.min (N.to_nat (N.min n (N.of_nat (BUF - length (c_win (k_conn k)))))) (length (k_rest k))).
  assert (Hkk : (kk <= BUF - length (c_win (k_conn k)))%nat) by (unfold kk; lia).
  destruct kk as [|kk']; [apply read_line_KI; [exact HK|exact Logic.I]|].
  apply read_line_KI; [exact HK|]. cbn [ev_ok]. rewrite firstn_length. lia.
Qed.

Lemma drain_reads_KI : forall fuel pre k n, KI k -> KI (fst (drain_reads BUF fuel pre k n)).
Proof.
  induction fuel as [|f IH]; intros pre k n HK; cbn [drain_reads]; [exact HK|].
  destruct (k_rest k); [exact HK|].
  pose proof (take_step_KI false pre k n 0 HK) as H1.
  destruct (take_step BUF false pre k n 0) as [[k' line] ok]. cbn [fst] in H1.
  destruct ok; [|exact H1]. specialize (IH pre k' n H1). destruct (drain_reads BUF f pre k' n) as [k'' ls]. exact IH.
Qed.

Lemma fst_line {S T U V} (x : S * T * U) (f : T -> V) : fst (let '(k', line, _) := x in (k', f line)) = fst (fst x).
Proof. destruct x as [[k' line] ok]. reflexivity. Qed.

(* every operation is one of the transformers above, or changes no parser field; the line prefix is
   hidden first so that the case split over the operation code does not carry it *)
Theorem run_conn_op_KI id i k op : KI k -> KI (fst (run_conn_op BUF id i k op)).
Proof.
  intros HK. unfold run_conn_op. generalize (B"conn " ++ dec id ++ B" " ++ decn i ++ B" "). intros pre.
  repeat match goal with
         | |- context [match ?x with _ => _ end] => is_var x; destruct x
         end;
    rewrite ?fst_line; cbn [fst];
    first [ exact HK
          | apply write_line_KI; exact HK
          | apply drain_reads_KI; exact HK
          | apply take_step_KI; exact HK
          | apply read_line_KI; [exact HK|exact Logic.I]
          | apply (KI_same k); [exact HK|repeat split] ].
Qed.

Fixpoint run_conn_state (id : N) (i : nat) (k : cst) (ops : list arg) : cst :=
  match ops with
  | [] => k
  | op :: r => run_conn_state id (S i) (fst (run_conn_op BUF id i k op)) r
  end.

Theorem executed_conn_keeps_inv : forall ops id i k, KI k -> KI (run_conn_state id i k ops).
Proof.
  induction ops as [|op r IH]; intros id i k HK; cbn [run_conn_state]; [exact HK|].
  apply IH. apply run_conn_op_KI. exact HK.
Qed.

Corollary executed_conn_from_new ops id L stream :
  KI (run_conn_state id 0 (mkCst (set_payload_max_size conn_new L) stream 0) ops).
Proof.
  apply executed_conn_keeps_inv. exists PLine. cbn [k_conn]. apply CInv_new; assumption.
Qed.

End RC.
