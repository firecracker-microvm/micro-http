(* The request grammar (C02): request-line shape and error precedence; a well-formed
   encoding is delivered with its fields verbatim. *)
From MH Require Export proofs.Limits_proofs proofs.Headers_proofs.

Lemma split_request_line_some l m u v :
  split_request_line l = Some (m, u, v) <->
  (l = m ++ SP :: u ++ SP :: v /\ ~ In SP m /\ ~ In SP u).
Proof.
  unfold split_request_line. split.
  - destruct (split_at SP l) as [[m0 rest]|] eqn:S1; [|discriminate].
    destruct (split_at SP rest) as [[u0 v0]|] eqn:S2; [|discriminate].
    intros H; inversion H; subst. apply split_at_some in S1, S2.
    destruct S1 as [-> H1]. destruct S2 as [-> H2]. auto.
  - intros (-> & H1 & H2). rewrite (split_at_app SP m _ H1). rewrite (split_at_app SP u _ H2). reflexivity.
Qed.

Lemma split_request_line_none l :
  split_request_line l = None <->
  (~ In SP l \/ exists m rest, l = m ++ SP :: rest /\ ~ In SP m /\ ~ In SP rest).
Proof.
  unfold split_request_line. split.
  - destruct (split_at SP l) as [[m0 rest]|] eqn:S1.
    + destruct (split_at SP rest) as [[u0 v0]|] eqn:S2; [discriminate|]. intros _. right.
      apply split_at_some in S1. destruct S1 as [-> H1]. apply split_at_none in S2. eauto.
    + intros _. left. apply split_at_none. exact S1.
  - intros [H|(m & rest & -> & H1 & H2)].
    + apply split_at_none in H. rewrite H. reflexivity.
    + rewrite (split_at_app SP m _ H1). apply split_at_none in H2. rewrite H2. reflexivity.
Qed.

(* error precedence within a request line: malformed shape, then method, then URI, then version *)
Theorem reqline_precedence l :
  match split_request_line l with
  | None => parse_reqline l = Err InvalidRequest
  | Some (m, u, v) =>
    match parse_method m with
    | None => parse_reqline l = Err InvalidHttpMethod
    | Some m' =>
      match uri_try_from u with
      | Err w => parse_reqline l = Err (InvalidUri w)
      | Ok u' =>
        match parse_version v with
        | None => parse_reqline l = Err InvalidHttpVersion
        | Some v' => parse_reqline l = Ok (mkRL m' u' v')
        end
      end
    end
  end.
Proof.
  unfold parse_reqline. destruct (split_request_line l) as [[[m u] v]|]; [|reflexivity].
  destruct (parse_method m); [|reflexivity]. destruct (uri_try_from u); [|reflexivity].
  destruct (parse_version v); reflexivity.
Qed.

Lemma uri_try_from_ok u u' : uri_try_from u = Ok u' <-> (u' = u /\ u <> [] /\ utf8_valid u = true).
Proof.
  unfold uri_try_from. destruct u as [|a r]; [split; [discriminate|intros (_ & H & _); congruence]|].
  destruct (utf8_valid (a :: r)); split; try discriminate.
  - intros H; inversion H. repeat split; auto. discriminate.
  - intros (-> & _ & _). reflexivity.
  - intros (_ & _ & H). discriminate.
Qed.

(* a request line is accepted iff it is METHOD SP URI SP VERSION with a non-empty UTF-8 URI
   without spaces; the parsed fields are exactly those bytes *)
Theorem reqline_accept_iff l rl :
  parse_reqline l = Ok rl <->
  (l = raw_method (rl_method rl) ++ SP :: rl_uri rl ++ SP :: raw_version (rl_version rl)
   /\ rl_uri rl <> [] /\ utf8_valid (rl_uri rl) = true /\ ~ In SP (rl_uri rl)).
Proof.
  split.
  - intros H. pose proof (reqline_precedence l) as P.
    destruct (split_request_line l) as [[[m u] v]|] eqn:S; [|congruence].
    destruct (parse_method m) as [m'|] eqn:Pm; [|congruence].
    destruct (uri_try_from u) as [u'|w] eqn:Pu; [|congruence].
    destruct (parse_version v) as [v'|] eqn:Pv; [|congruence].
    rewrite H in P. inversion P; subst. cbn [rl_method rl_uri rl_version].
    apply parse_method_iff in Pm. apply parse_version_iff in Pv. apply uri_try_from_ok in Pu.
    apply split_request_line_some in S. destruct S as (-> & _ & Hu). destruct Pu as (-> & Hne & Hv). subst.
    auto.
  - intros (-> & Hne & Hv & Hsp). destruct rl as [m u v]. cbn [rl_method rl_uri rl_version] in *.
    unfold parse_reqline.
    assert (S : split_request_line (raw_method m ++ SP :: u ++ SP :: raw_version v) = Some (raw_method m, u, raw_version v)).
    { apply split_request_line_some. split; [reflexivity|]. split; [|exact Hsp].
      destruct m; cbn; unfold SP; intros H; repeat (destruct H as [H|H]; [discriminate|]); exact H. }
    rewrite S, parse_method_raw.
    rewrite (proj2 (uri_try_from_ok u u)), parse_version_raw by auto. reflexivity.
Qed.

Section Enc.
Variable BUF : nat.
Hypothesis BUF_min : (2 <= BUF)%nat.
Variable L : N.
Notation runT := (runT BUF L).

(* a line that contains no CRLF (equivalently, by Spec_proofs.find_crlf_snoc_cr: none before the CR of
   its terminator, the form the line search sees), and fits the buffer with its CRLF *)
Definition line_ok (l : bytes) : Prop := find_crlf (l ++ [CR]) = None /\ (length l + 2 <= BUF)%nat.

(* the line-by-line header rule (UnsupportedValue ignored); unlike the model's headers_fold it does not stop at an
   empty line, and the two agree on lists without one (Oneshot_proofs.headers_fold_no_empty) *)
Fixpoint fold_lines (h : headers) (hs : list bytes) : res headers req_err :=
  match hs with
  | [] => Ok h
  | l :: r => match parse_header_tolerant h l with Ok h' => fold_lines h' r | Err e => Err e end
  end.

Definition with_crlf (ls : list bytes) : bytes := flat_map (fun l => l ++ CRLF) ls.

Lemma take_line_ok l t : line_ok l -> take_line BUF (l ++ CRLF ++ t) = LLine l t.
Proof. intros [H1 H2]. apply (line_limit_iff BUF BUF_min l t H1). exact H2. Qed.

Lemma header_lines_run rl : forall hs h h' t acc,
  Forall (fun l => l <> [] /\ line_ok l) hs -> fold_lines h hs = Ok h' ->
  runT (PHdr rl h) (with_crlf hs ++ t) acc = runT (PHdr rl h') t acc.
Proof.
  induction hs as [|l hs IH]; intros h h' t acc Hall Hf.
  - cbn in Hf. inversion Hf. reflexivity.
  - inversion Hall as [|? ? [Hne Hok] Hrest]; subst. cbn [fold_lines] in Hf.
    destruct (parse_header_tolerant h l) as [h1|e] eqn:P; [|discriminate].
    cbn [with_crlf flat_map]. fold (with_crlf hs). rewrite <- !app_assoc.
    rewrite runT_unfold. cbn [ConnSpec.step]. rewrite (take_line_ok l _ Hok).
    destruct l as [|x l']; [congruence|]. rewrite P. rewrite app_nil_r. apply IH; assumption.
Qed.

Definition interim (rl : request_line) (h : headers) : list out :=
  if (h_content_length h =? 0) then [] else if h_expect h then [OContinue (rl_version rl)] else [].
Definition delivered_body (h : headers) (body : bytes) : option bytes :=
  if (h_content_length h =? 0) then None else Some body.

(* METHOD SP URI SP VERSION CRLF *(header CRLF) CRLF body: the request is delivered, with the
   parsed request line, the folded headers and exactly the Content-Length bytes that follow the
   header terminator; parsing continues on the rest *)
Theorem wellformed_delivered rlb rl hs hd body rest acc :
  parse_reqline rlb = Ok rl -> line_ok rlb ->
  Forall (fun l => l <> [] /\ line_ok l) hs -> fold_lines headers_default hs = Ok hd ->
  h_content_length hd <= L -> lenN body = h_content_length hd ->
  runT PLine (rlb ++ CRLF ++ with_crlf hs ++ CRLF ++ body ++ rest) acc =
  runT PLine rest (acc ++ interim rl hd ++ [ORequest rl hd (delivered_body hd body)]).
Proof.
  intros Prl Hrl Hall Hf Hlim Hlen.
  rewrite runT_unfold. cbn [ConnSpec.step]. rewrite (take_line_ok rlb _ Hrl). rewrite Prl. rewrite app_nil_r.
  rewrite (header_lines_run rl hs headers_default hd _ acc Hall Hf).
  rewrite runT_unfold. rewrite (size_limit_accept BUF BUF_min L rl hd _ Hlim).
  unfold interim, delivered_body.
  destruct (h_content_length hd =? 0) eqn:Z.
  - apply N.eqb_eq in Z. rewrite (lenN_nil body) by congruence. reflexivity.
  - rewrite runT_unfold. cbn [ConnSpec.step].
    assert (Le : (h_content_length hd <=? lenN (body ++ rest)) = true).
    { apply N.leb_le. rewrite lenN_app. lia. }
    rewrite Le, <- Hlen, firstn_lenN, skipn_lenN. cbn [app]. rewrite <- app_assoc. reflexivity.
Qed.

End Enc.
