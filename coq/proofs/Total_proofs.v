(* Totality (C03): no reachable state x input reaches a modelled panic site; the one-shot
   parser's slices and subtractions are always in range. *)
From MH Require Export proofs.Impl_proofs proofs.Write_proofs model.OneShot.

(* a CRLFCRLF found in a slice that starts with CRLF is at 0 or at >= 2 (never at 1) *)
Lemma crlfcrlf_not_at_1 t : prefixb CRLF t = true -> find CRLFCRLF t <> Some 1%nat.
Proof.
  intros P H. apply prefixb_spec in P. destruct P as [r ->].
  destruct (find_split _ _ _ H) as ([|x [|y a]] & b & E & La); try discriminate La.
  (* the LF of the leading CRLF would be the CR of the CRLFCRLF *)
  injection E as _ E _. discriminate E.
Qed.

Lemma slice_to_le l b : (b <= length l)%nat -> slice_to l b = Some (firstn b l).
Proof. intros H. unfold slice_to. rewrite (proj2 (Nat.leb_le _ _) H). reflexivity. Qed.

Lemma slice_from_le l a : (a <= length l)%nat -> slice_from l a = Some (skipn a l).
Proof. intros H. unfold slice_from. rewrite (proj2 (Nat.leb_le _ _) H). reflexivity. Qed.

(* the end of Request::try_from, from Headers::try_from on: the header block and what follows the
   blank line are cut out *)
Definition try_from_block (rl : request_line) (block after : bytes) : ores :=
  match headers_try_from block with
  | Err e => OErr e
  | Ok h =>
    if h_content_length h =? 0 then OOk rl h None else
    if method_eqb (rl_method rl) Get then OErr InvalidRequest else
    if lenN after =? h_content_length h then OOk rl h (Some after) else OErr InvalidRequest
  end.

(* Request::try_from after the request line: hb is what follows the line's CRLF *)
Definition try_from_headers (rl : request_line) (hb : bytes) : ores :=
  match find CRLFCRLF (CRLF ++ hb) with
  | None => OErr InvalidRequest
  | Some O => OOk rl headers_default None
  | Some he => try_from_block rl (firstn (he - 2) hb) (skipn (he - 2 + 4) hb)
  end.

(* Request::try_from on a slice cut at its first line: the five slices are in range and the two
   subtractions defined, which leaves the decisions.  Three slices end or start at the line's CRLF.
   The CRLFCRLF is searched from that CRLF on, so it is found at 0 or from 2 on
   (crlfcrlf_not_at_1: headers_end - 2 does not underflow), and it ends inside the slice: the block,
   crlf_end and the body lie within hb. *)
Lemma try_from_line rlb hb : find_crlf (rlb ++ CRLF ++ hb) = Some (length rlb) ->
  request_try_from (rlb ++ CRLF ++ hb) None =
  if (length rlb <? reqline_min_len)%nat then OErr InvalidRequest else
  match parse_reqline rlb with
  | Err e => OErr e
  | Ok rl => try_from_headers rl hb
  end.
Proof.
  intros F. unfold request_try_from. rewrite F.
  assert (Lbs : length (rlb ++ CRLF ++ hb) = (length rlb + (2 + length hb))%nat) by (rewrite !app_length; reflexivity).
  rewrite slice_to_le, !slice_from_le, firstn_app_exact, skipn_app_exact, skipn_app_plus by lia.
  change (skipn 2 (CRLF ++ hb)) with hb.
  destruct (length rlb <? reqline_min_len)%nat; [reflexivity|].
  destruct (parse_reqline rlb) as [rl|e]; [|reflexivity].
  unfold try_from_headers. destruct (find CRLFCRLF (CRLF ++ hb)) as [[|he]|] eqn:F2; try reflexivity.
  assert (he <> 0%nat) by (intros ->; exact (crlfcrlf_not_at_1 (CRLF ++ hb) eq_refl F2)).
  apply find_found in F2. cbn [length app CRLF CRLFCRLF] in F2.
  rewrite (proj2 (Nat.ltb_ge _ _)), slice_to_le by lia.
  unfold try_from_block. destruct (headers_try_from _) as [h|e]; [|reflexivity].
  destruct (h_content_length h =? 0); [reflexivity|].
  destruct (method_eqb (rl_method rl) Get); [reflexivity|].
  rewrite (proj2 (Nat.ltb_ge _ _)), slice_from_le by lia.
  (* the body is long enough, then of the declared length: one comparison *)
  unfold lenN. rewrite skipn_length.
  destruct (N.eqb_spec (N.of_nat (length hb - (S he - 2 + 4))) (h_content_length h)) as [<-|];
    [rewrite N.ltb_irrefl|destruct (_ <? _)]; reflexivity.
Qed.

(* the CRLFCRLF found is the line's CRLF and a second one, or the end of a header block *)
Lemma cc_after_crlf hb he : find CRLFCRLF (CRLF ++ hb) = Some he ->
  (he = 0%nat /\ exists rest, hb = CRLF ++ rest) \/
  exists block after, hb = block ++ CRLFCRLF ++ after /\ he = (length block + 2)%nat.
Proof.
  intros F. pose proof (crlfcrlf_not_at_1 (CRLF ++ hb) eq_refl) as H1.
  destruct (find_split _ _ _ F) as ([|c [|d block]] & after & E & <-).
  - left. injection E as ->. split; [reflexivity|]. exists after. reflexivity.
  - contradiction.
  - right. injection E as _ _ ->. exists block, after. cbn [length]. rewrite Nat.add_comm. auto.
Qed.

Lemma try_from_headers_block rl block after :
  find CRLFCRLF (CRLF ++ block ++ CRLFCRLF ++ after) = Some (length block + 2)%nat ->
  try_from_headers rl (block ++ CRLFCRLF ++ after) = try_from_block rl block after.
Proof.
  intros F. unfold try_from_headers. rewrite F, Nat.add_comm. cbn [Nat.add Nat.sub].
  rewrite !Nat.sub_0_r, firstn_app_exact, skipn_app_plus. reflexivity.
Qed.

Lemma try_from_no_line bs : find_crlf bs = None -> request_try_from bs None = OErr InvalidRequest.
Proof. intros F. unfold request_try_from. rewrite F. reflexivity. Qed.

(* the one-shot parser rejects slices whose length reaches the caller's maximum *)
Theorem request_try_from_maxlen bs n :
  request_try_from bs (Some n) = if n <=? lenN bs then OErr InvalidRequest else request_try_from bs None.
Proof. unfold request_try_from. destruct (n <=? lenN bs); reflexivity. Qed.

Lemma try_from_block_total rl block after s : try_from_block rl block after <> OPanic s.
Proof.
  unfold try_from_block. destruct (headers_try_from block) as [h|e]; [|discriminate].
  destruct (h_content_length h =? 0); [discriminate|].
  destruct (method_eqb (rl_method rl) Get); [discriminate|].
  destruct (lenN after =? h_content_length h); discriminate.
Qed.

(* C03: no input reaches a panic site of Request::try_from *)
Theorem request_try_from_total bs max : forall s, request_try_from bs max <> OPanic s.
Proof.
  intros s. assert (H : request_try_from bs None <> OPanic s).
  { destruct (find_crlf bs) as [rle|] eqn:F; [|rewrite (try_from_no_line bs F); discriminate].
    destruct (find_split _ _ _ F) as (rlb & hb & -> & <-). rewrite (try_from_line _ _ F).
    destruct (length rlb <? reqline_min_len)%nat; [discriminate|].
    destruct (parse_reqline rlb) as [rl|e]; [|discriminate].
    unfold try_from_headers. destruct (find CRLFCRLF (CRLF ++ hb)) as [[|he]|]; try discriminate.
    apply try_from_block_total. }
  destruct max as [n|]; [|exact H].
  rewrite request_try_from_maxlen. destruct (n <=? lenN bs); [discriminate|exact H].
Qed.

Section Conn.
Variable BUF : nat.
Hypothesis BUF_min : (2 <= BUF)%nat.
Hypothesis BUF_u32 : N.of_nat BUF < U32_LIMIT.

Inductive cop :=
| CRead (ev : read_ev)
| CWrite (ev : write_ev)
| CEnqueue (r : response)
| CPop
| CClear
| CSetMax (n : N).

(* the contracts of the two system calls: recvmsg returns at most `room` bytes, write accepts at
   most what it was offered *)
Definition cop_ok (c : conn) (o : cop) : Prop :=
  match o with
  | CRead ev => ev_ok BUF c ev
  | CWrite ev => wop_ok c (WTry ev)
  | _ => True
  end.

(* result: the new connection, whether a modelled panic site was reached, and the number of
   system calls made *)
Definition apply_cop (c : conn) (o : cop) : conn * bool * nat :=
  match o with
  | CRead ev => let '(c', res, sys) := try_read BUF c ev in
                (c', match res with RdPanic _ => true | _ => false end, if sys then 1%nat else 0%nat)
  | CWrite ev => let '(c', res, off) := try_write c ev in
                 (c', match res with WrPanic _ => true | _ => false end, match off with Some _ => 1%nat | None => 0%nat end)
  | CEnqueue r => (enqueue_response c r, false, 0%nat)
  | CPop => (snd (pop_parsed_request c), false, 0%nat)
  | CClear => (clear_write_buffer c, false, 0%nat)
  | CSetMax n => (set_payload_max_size c n, false, 0%nat)
  end.

Definition parser_same (c c' : conn) : Prop :=
  c_state c' = c_state c /\ c_win c' = c_win c /\ c_pending c' = c_pending c /\
  c_body_vec c' = c_body_vec c /\ c_body_left c' = c_body_left c.

Lemma CInv_parser_same c c' ph : CInv BUF c ph -> parser_same c c' -> CInv BUF c' ph.
Proof.
  intros [G St] (E1 & E2 & E3 & E4 & E5). split.
  - eapply Good_parser_fields; eauto.
  - rewrite E2. eapply stuck_pmax. exact St.
Qed.

Lemma try_write_parser_same c ev : parser_same c (fst (fst (try_write c ev))).
Proof.
  assert (W : forall c1 b, parser_same c1 (fst (fst (write_out c1 b ev)))).
  { intros c1 b. unfold write_out.
    destruct ev as [[|k]| |]; [|destruct (_ =? _)%nat; [|destruct (_ <? _)%nat]|..]; repeat split. }
  rewrite try_write_eq. unfold stage. destruct (c_rbuf c); [apply W|].
  destruct (c_rq c) as [|r q]; [repeat split|]. exact (W (set_write c q _) _).
Qed.

Theorem cop_total c ph o : CInv BUF c ph -> cop_ok c o ->
  exists ph', CInv BUF (fst (fst (apply_cop c o))) ph' /\ snd (fst (apply_cop c o)) = false
              /\ (snd (apply_cop c o) <= 1)%nat.
Proof.
  intros I Hok. destruct o as [ev|ev|r| | |n]; cbn [apply_cop cop_ok] in *.
  - destruct (try_read_total BUF BUF_min BUF_u32 c ph ev I Hok) as (c' & res & sys & ph' & T & I' & Hnp & Hs & _).
    rewrite T. exists ph'. cbn [fst snd]. split; [exact I'|]. split.
    + destruct res; try reflexivity. exfalso. eapply Hnp. reflexivity.
    + destruct sys; lia.
  - pose proof (try_write_parser_same c ev) as PS. pose proof (try_write_no_panic c ev Hok) as NP.
    destruct (try_write c ev) as [[c' res] off]. cbn [fst snd] in *. exists ph.
    split; [eapply CInv_parser_same; eauto|]. split.
    + destruct res; try reflexivity. exfalso. eapply NP. reflexivity.
    + destruct off; lia.
  - exists ph. cbn. split; [eapply CInv_parser_same; [exact I|repeat split]|auto].
  - exists ph. unfold pop_parsed_request. destruct (c_parsed c); cbn;
      (split; [eapply CInv_parser_same; [exact I|repeat split]|auto]).
  - exists ph. cbn. split; [eapply CInv_parser_same; [exact I|repeat split]|auto].
  - exists ph. cbn. split; [eapply CInv_parser_same; [exact I|repeat split]|auto].
Qed.

Fixpoint cops_ok (c : conn) (ops : list cop) : Prop :=
  match ops with [] => True | o :: r => cop_ok c o /\ cops_ok (fst (fst (apply_cop c o))) r end.

Fixpoint any_panic (c : conn) (ops : list cop) : bool :=
  match ops with [] => false | o :: r => snd (fst (apply_cop c o)) || any_panic (fst (fst (apply_cop c o))) r end.

(* every sequence of calls -- reads, writes, enqueues, pops, clears, limit changes -- including
   everything done after ParseError, StreamReadError and ConnectionClosed: no panic site is reached *)
Theorem conn_total : forall ops c ph, CInv BUF c ph -> cops_ok c ops -> any_panic c ops = false.
Proof.
  induction ops as [|o r IH]; intros c ph I Hok; [reflexivity|]. destruct Hok as [H1 H2].
  destruct (cop_total c ph o I H1) as (ph' & I' & Hp & _). cbn [any_panic]. rewrite Hp. cbn [orb].
  eapply IH; eauto.
Qed.

End Conn.
