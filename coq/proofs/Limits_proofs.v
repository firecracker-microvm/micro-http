(* Decision rules of the specification: the payload limit, the line limit, and when a
   100-continue is emitted (C04, C13). *)
From MH Require Export proofs.Spec_proofs.

Section Rules.
Variable BUF : nat.
Hypothesis BUF_min : (2 <= BUF)%nat.
Variable L : N.

Notation take_line := (take_line BUF).
Notation step := (step BUF L).
Notation runT := (runT BUF L).

Lemma take_line_blank t : take_line (CRLF ++ t) = LLine [] t.
Proof.
  unfold ConnSpec.take_line. destruct BUF as [|[|b]]; [lia|lia|]. reflexivity.
Qed.

(* at the blank line that ends a header block: size-limit error iff declared length > L;
   no byte after the terminator is needed (t is arbitrary, possibly empty) *)
Lemma size_limit_iff rl h t e :
  step (PHdr rl h) (CRLF ++ t) = SErr e <->
  (e = SizeLimitExceeded L (h_content_length h) /\ L < h_content_length h).
Proof.
  cbn [ConnSpec.step]. rewrite take_line_blank.
  destruct (h_content_length h =? 0) eqn:Z.
  - apply N.eqb_eq in Z. split; [discriminate|]. intros [_ H]. lia.
  - destruct (L <? h_content_length h) eqn:Lt.
    + apply N.ltb_lt in Lt. split; [intros H; inversion H; auto|]. intros [-> _]. reflexivity.
    + apply N.ltb_ge in Lt. split; [discriminate|]. intros [_ H]. lia.
Qed.

Lemma size_limit_accept rl h t :
  h_content_length h <= L ->
  step (PHdr rl h) (CRLF ++ t) =
    if h_content_length h =? 0 then SDone PLine t [ORequest rl h None]
    else SDone (PBody rl h [] (h_content_length h)) t (if h_expect h then [OContinue (rl_version rl)] else []).
Proof.
  intros H. cbn [ConnSpec.step]. rewrite take_line_blank.
  destruct (h_content_length h =? 0); [reflexivity|].
  rewrite (proj2 (N.ltb_ge _ _) H). reflexivity.
Qed.

Definition phase_ok (ph : phase) : Prop :=
  match ph with
  | PBody rl h acc lft => lenN acc + lft = h_content_length h /\ h_content_length h <= L /\ 1 <= lft
  | _ => True
  end.
Definition out_ok (o : out) : Prop :=
  match o with
  | ORequest rl h (Some b) => lenN b = h_content_length h /\ h_content_length h <= L /\ 1 <= h_content_length h
  | ORequest rl h None => h_content_length h = 0
  | OContinue _ => True
  end.

Lemma step_ok ph w :
  phase_ok ph ->
  match step ph w with
  | SDone ph' _ o => phase_ok ph' /\ Forall out_ok o
  | SMore ph' _ => phase_ok ph'
  | SErr _ => True
  end.
Proof.
  intros Hp. destruct ph as [|rl h|rl h acc lft]; cbn [ConnSpec.step].
  - destruct (take_line w) as [l r| |]; auto. destruct (parse_reqline l); cbn; auto.
  - destruct (take_line w) as [l r| |]; cbn; auto.
    destruct l as [|x l'].
    + destruct (h_content_length h =? 0) eqn:Z.
      * apply N.eqb_eq in Z. cbn. split; auto.
      * destruct (L <? h_content_length h) eqn:Lt; [exact I|].
        apply N.ltb_ge in Lt. apply N.eqb_neq in Z. cbn. split.
        -- lia.
        -- destruct (h_expect h); repeat constructor.
    + destruct (parse_header_tolerant h (x :: l')); cbn; auto.
  - cbn in Hp. destruct Hp as (Hs & Hl & H1).
    destruct (lft <=? lenN w) eqn:Le.
    + apply N.leb_le in Le. cbn. split; auto. constructor; [|constructor]. cbn.
      rewrite lenN_app. unfold lenN in *. rewrite firstn_length. split; [lia|]. split; lia.
    + apply N.leb_gt in Le. cbn. rewrite lenN_app. lia.
Qed.

(* every delivered body has exactly the declared length, which is within the limit *)
Corollary parse_stream_outs_ok s :
  match parse_stream BUF L s with
  | RMore _ _ o => Forall out_ok o
  | RErr o _ => Forall out_ok o
  | ROutOfFuel => False
  end.
Proof using BUF_min.
  unfold parse_stream.
  cut (match runT PLine s [] with
       | RMore ph' _ o => phase_ok ph' /\ Forall out_ok o
       | RErr o _ => Forall out_ok o
       | ROutOfFuel => False
       end); [destruct (runT PLine s []); tauto|].
  apply (runT_invariant BUF L (fun ph acc => phase_ok ph /\ Forall out_ok acc) (Forall out_ok));
    [|split; [exact I|constructor]].
  intros ph w acc [Hp Ha]. pose proof (step_ok ph w Hp) as S.
  destruct (step ph w); [|split; assumption|exact Ha].
  split; [apply S|apply Forall_app; split; [exact Ha|apply S]].
Qed.

(* a terminated line l CRLF (with no earlier CRLF) at the head of the window is rejected for
   its length iff it is longer than BUF bytes including its CRLF *)
Theorem line_limit_iff l t :
  find_crlf (l ++ [CR]) = None ->
  (take_line (l ++ CRLF ++ t) = LTooLong <-> (BUF < length l + 2)%nat) /\
  ((length l + 2 <= BUF)%nat -> take_line (l ++ CRLF ++ t) = LLine l t).
Proof using BUF_min.
  intros Hl. rewrite (take_line_found BUF _ _ (find_crlf_at_end l Hl t)), firstn_app_exact, skipn_app_plus.
  destruct (Nat.leb_spec (length l + 2) BUF); (split; [split|]); intros; try reflexivity; try discriminate; lia.
Qed.

(* a line that is never terminated is rejected exactly once BUF bytes of it have arrived *)
Theorem unterminated_line_iff w :
  find_crlf w = None -> (take_line w = LTooLong <-> (BUF <= length w)%nat) /\ (take_line w = LMore <-> (length w < BUF)%nat).
Proof using BUF_min.
  intros H. rewrite (take_line_none BUF w H).
  destruct (BUF <=? length w)%nat eqn:E; [apply Nat.leb_le in E|apply Nat.leb_gt in E];
    split; split; intros; try reflexivity; try discriminate; lia.
Qed.

Lemma step_continue_iff ph w ph' rest o v :
  step ph w = SDone ph' rest o ->
  (In (OContinue v) o <->
   exists rl h, ph = PHdr rl h /\ take_line w = LLine [] rest /\ h_expect h = true /\
                h_content_length h <> 0 /\ h_content_length h <= L /\ v = rl_version rl
                /\ o = [OContinue v] /\ ph' = PBody rl h [] (h_content_length h)).
Proof.
  destruct ph as [|rl h|rl h acc lft]; cbn [ConnSpec.step].
  - destruct (take_line w) as [l r| |]; try discriminate. destruct (parse_reqline l); [|discriminate].
    intros H; inversion H; subst. split; [intros []|]. intros (rl & h & E & _). discriminate.
  - destruct (take_line w) as [l r| |] eqn:T; try discriminate.
    destruct l as [|x l'].
    + destruct (h_content_length h =? 0) eqn:Z.
      * intros H; inversion H; subst. split.
        -- intros [A|[]]. discriminate.
        -- intros (rl0 & h0 & E & _ & _ & Hz & _). inversion E; subst. apply N.eqb_eq in Z. contradiction.
      * destruct (L <? h_content_length h) eqn:Lt; [discriminate|].
        apply N.ltb_ge in Lt. apply N.eqb_neq in Z.
        intros H; inversion H; subst. destruct (h_expect h) eqn:Ex.
        -- split.
           ++ intros [A|[]]. inversion A; subst. exists rl, h. repeat split; auto.
           ++ intros (rl0 & h0 & E & _ & _ & _ & _ & -> & _). inversion E; subst. left. reflexivity.
        -- split; [intros []|]. intros (rl0 & h0 & E & _ & Hx & _). inversion E; subst. congruence.
    + destruct (parse_header_tolerant h (x :: l')); [|discriminate].
      intros H; inversion H; subst. split; [intros []|].
      intros (rl0 & h0 & E & T' & _). discriminate.
  - destruct (lft <=? lenN w); [|discriminate]. intros H; inversion H; subst.
    split; [intros [A|[]]; discriminate|]. intros (rl0 & h0 & E & _). discriminate.
Qed.

(* the 100 Continue is emitted as soon as the header block is complete: no body byte is needed *)
Lemma continue_early rl h t :
  h_expect h = true -> h_content_length h <> 0 -> h_content_length h <= L ->
  step (PHdr rl h) (CRLF ++ t) = SDone (PBody rl h [] (h_content_length h)) t [OContinue (rl_version rl)].
Proof.
  intros Ex Hz Hl. rewrite size_limit_accept by exact Hl.
  apply N.eqb_neq in Hz. rewrite Hz, Ex. reflexivity.
Qed.

Definition expecting (x : request_line * headers * option bytes) : bool :=
  match x with (_, h, Some _) => h_expect h | _ => false end.

Fixpoint ocores (outs : list out) : list (request_line * headers * option bytes) :=
  match outs with
  | [] => []
  | ORequest rl h b :: r => (rl, h, b) :: ocores r
  | OContinue _ :: r => ocores r
  end.
Fixpoint oconts (outs : list out) : list version :=
  match outs with
  | [] => []
  | ORequest _ _ _ :: r => oconts r
  | OContinue v :: r => v :: oconts r
  end.
Definition conts_for (cs : list (request_line * headers * option bytes)) : list version :=
  map (fun x => rl_version (fst (fst x))) (filter expecting cs).
Definition pending_cont (ph : phase) : list version :=
  match ph with PBody rl h _ _ => if h_expect h then [rl_version rl] else [] | _ => [] end.

Lemma ocores_app a b : ocores (a ++ b) = ocores a ++ ocores b.
Proof. induction a as [|o a IH]; [reflexivity|]. destruct o; cbn; rewrite IH; reflexivity. Qed.
Lemma oconts_app a b : oconts (a ++ b) = oconts a ++ oconts b.
Proof. induction a as [|o a IH]; [reflexivity|]. destruct o; cbn; rewrite IH; reflexivity. Qed.
Lemma conts_for_app a b : conts_for (a ++ b) = conts_for a ++ conts_for b.
Proof. unfold conts_for. rewrite filter_app, map_app. reflexivity. Qed.

(* what each step of a run keeps: parse_stream_continues is this when the run stops *)
Definition conts_inv (ph : phase) (acc : list out) : Prop :=
  oconts acc = conts_for (ocores acc) ++ pending_cont ph.

Lemma step_conts_inv ph w acc : conts_inv ph acc ->
  match step ph w with
  | SDone ph' _ o => conts_inv ph' (acc ++ o)
  | SMore ph' _ => conts_inv ph' acc
  | SErr _ => pending_cont ph = []
  end.
Proof.
  unfold conts_inv. intros Hc. destruct ph as [|rl h|rl h a lft]; cbn [ConnSpec.step].
  - destruct (take_line w) as [l r| |]; auto. destruct (parse_reqline l); auto.
    rewrite app_nil_r. exact Hc.
  - destruct (take_line w) as [l r| |]; auto.
    destruct l as [|x l'].
    + destruct (h_content_length h =? 0).
      * rewrite oconts_app, ocores_app, conts_for_app. cbn. rewrite Hc. cbn. rewrite !app_nil_r. reflexivity.
      * destruct (L <? h_content_length h); [reflexivity|].
        rewrite oconts_app, ocores_app, conts_for_app. rewrite Hc. cbn [pending_cont].
        destruct (h_expect h); cbn; rewrite ?app_nil_r; reflexivity.
    + destruct (parse_header_tolerant h (x :: l')); auto. rewrite app_nil_r. exact Hc.
  - destruct (lft <=? lenN w).
    + rewrite oconts_app, ocores_app, conts_for_app. rewrite Hc. cbn.
      destruct (h_expect h); cbn; rewrite ?app_nil_r; reflexivity.
    + exact Hc.
Qed.

(* exactly once per request that asks for it and carries a body: over a whole run, the interim
   responses are those of the delivered requests that expected one, in order, plus the one for
   the request whose body is still awaited *)
Corollary parse_stream_continues s :
  match parse_stream BUF L s with
  | RMore ph' _ o => oconts o = conts_for (ocores o) ++ pending_cont ph'
  | RErr o _ => oconts o = conts_for (ocores o)
  | ROutOfFuel => False
  end.
Proof using BUF_min.
  apply (runT_invariant BUF L conts_inv (fun o => oconts o = conts_for (ocores o))); [|reflexivity].
  intros ph w acc Hc. pose proof (step_conts_inv ph w acc Hc) as S. destruct (step ph w); try exact S.
  unfold conts_inv in Hc. rewrite S, app_nil_r in Hc. exact Hc.
Qed.

End Rules.
