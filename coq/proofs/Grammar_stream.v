(* C02, stream level: the outcome "parse error" of the whole-stream parser, classified.
   parse_stream s = RErr o e  iff  s is a sequence of well-formed request encodings (all delivered,
   o is exactly their deliveries) followed by a tail whose FIRST incomplete request has the fault e:
   the first line too long, a bad request line (its kind by C02_reqline_precedence), or -- after a
   good request line and good header lines -- a header line that is too long or rejected by the
   header rules, or a declared length above the limit at the blank line. *)
From MH Require Export proofs.Grammar_conv.

Section Stream.
Variable BUF : nat.
Hypothesis BUF_min : (2 <= BUF)%nat.
Variable L : N.
Notation runT := (runT BUF L).
Notation line_ok := (line_ok BUF).
Notation take_line := (take_line BUF).
Notation with_crlf := Grammar_proofs.with_crlf.

(* a well-formed request encoding and what it delivers *)
Record wfreq := mkQ { q_rlb : bytes; q_rl : request_line; q_hs : list bytes; q_hd : headers; q_body : bytes }.
Definition WF (q : wfreq) : Prop :=
  parse_reqline (q_rlb q) = Ok (q_rl q) /\ line_ok (q_rlb q) /\
  Forall (fun l => l <> [] /\ line_ok l) (q_hs q) /\ fold_lines headers_default (q_hs q) = Ok (q_hd q) /\
  h_content_length (q_hd q) <= L /\ lenN (q_body q) = h_content_length (q_hd q).
Definition enc (q : wfreq) : bytes := q_rlb q ++ CRLF ++ with_crlf (q_hs q) ++ CRLF ++ q_body q.
Definition outs (q : wfreq) : list out :=
  interim (q_rl q) (q_hd q) ++ [ORequest (q_rl q) (q_hd q) (delivered_body (q_hd q) (q_body q))].
Definition enc_all (qs : list wfreq) : bytes := flat_map enc qs.
Definition outs_all (qs : list wfreq) : list out := flat_map outs qs.

(* the fault at the head of the header block remainder r, the headers folded so far being h *)
Inductive hdr_fault (h : headers) (r : bytes) : req_err -> Prop :=
| HF_long : take_line r = LTooLong -> hdr_fault h r (HeaderError (HSizeLimitExceeded (firstn BUF r)))
| HF_line l rest e : take_line r = LLine l rest -> l <> [] -> parse_header_tolerant h l = Err e -> hdr_fault h r e
| HF_size rest : take_line r = LLine [] rest -> L < h_content_length h ->
    hdr_fault h r (SizeLimitExceeded L (h_content_length h)).

(* the fault of the first (incomplete) request of the tail t *)
Inductive fault (t : bytes) : req_err -> Prop :=
| FT_long : take_line t = LTooLong -> fault t InvalidRequest
| FT_reqline l rest e : take_line t = LLine l rest -> parse_reqline l = Err e -> fault t e
| FT_hdr rlb rl hs h r e : parse_reqline rlb = Ok rl -> line_ok rlb ->
    Forall (fun l => l <> [] /\ line_ok l) hs -> fold_lines headers_default hs = Ok h ->
    t = rlb ++ CRLF ++ with_crlf hs ++ r -> hdr_fault h r e -> fault t e.

Lemma run_all : forall qs t acc, Forall WF qs -> runT PLine (enc_all qs ++ t) acc = runT PLine t (acc ++ outs_all qs).
Proof.
  induction qs as [|q qs IH]; intros t acc Hall; [cbn; rewrite app_nil_r; reflexivity|].
  inversion Hall as [|? ? (Prl & Hrl & Hhs & Hf & Hlim & Hlen) Hrest]; subst.
  cbn [enc_all outs_all flat_map]. fold (enc_all qs) (outs_all qs). unfold enc at 1. rewrite <- !app_assoc.
  rewrite (wellformed_delivered BUF BUF_min L _ _ _ _ _ (enc_all qs ++ t) acc Prl Hrl Hhs Hf Hlim Hlen).
  rewrite (IH t _ Hrest). unfold outs. rewrite <- !app_assoc. reflexivity.
Qed.

Lemma hdr_fault_run rl h r e acc : hdr_fault h r e -> runT (PHdr rl h) r acc = RErr acc e.
Proof.
  intros [T|l rest e' T Hne P|rest T Hlt]; rewrite runT_unfold; cbn [ConnSpec.step]; rewrite T.
  - reflexivity.
  - destruct l as [|c l']; [congruence|]. rewrite P. reflexivity.
  - rewrite (proj2 (N.eqb_neq _ _)) by lia.
    apply N.ltb_lt in Hlt. rewrite Hlt. reflexivity.
Qed.

Lemma fault_run t e acc : fault t e -> runT PLine t acc = RErr acc e.
Proof.
  intros [T|l rest e' T P|rlb rl hs h r e' Prl Hrl Hhs Hf -> HF].
  - rewrite runT_unfold. cbn [ConnSpec.step]. rewrite T. reflexivity.
  - rewrite runT_unfold. cbn [ConnSpec.step]. rewrite T, P. reflexivity.
  - rewrite runT_unfold. cbn [ConnSpec.step]. rewrite (take_line_ok BUF BUF_min rlb _ Hrl). rewrite Prl, app_nil_r.
    rewrite (header_lines_run BUF BUF_min L rl hs headers_default h r acc Hhs Hf).
    apply hdr_fault_run. exact HF.
Qed.

Lemma err_acc ph w acc o e : runT ph w acc = RErr o e -> exists o', o = acc ++ o' /\ runT ph w [] = RErr o' e.
Proof.
  rewrite (runT_acc BUF L ph w acc).
  destruct (ConnSpec.runT BUF L ph w []) as [? ? ?|o' e'|]; try discriminate.
  intros H; inversion H; subst. eauto.
Qed.

(* an error while waiting for the body is impossible without first delivering the request *)
Lemma body_err_delivers rl h a lft w o e : runT (PBody rl h a lft) w [] = RErr o e -> first_req o <> None.
Proof.
  rewrite runT_unfold. cbn [ConnSpec.step]. destruct (lft <=? lenN w); [|discriminate].
  intros H. apply err_acc in H. destruct H as (o' & -> & _). cbn [app first_req]. discriminate.
Qed.

(* an error in the header phase, no request delivered before it: good header lines, then the fault *)
Lemma hdr_err_inv rl h w o e :
  runT (PHdr rl h) w [] = RErr o e -> first_req o = None ->
  exists hs h' r, w = with_crlf hs ++ r /\ Forall (fun l => l <> [] /\ line_ok l) hs /\
                  fold_lines h hs = Ok h' /\ hdr_fault h' r e /\ o = [].
Proof.
  destruct (hdr_split BUF BUF_min L rl w h) as (hs & h' & r & -> & Hall & Hf & -> & Hstop).
  intros H Hnone. exists hs, h', r. split; [reflexivity|]. split; [exact Hall|]. split; [exact Hf|].
  revert H. rewrite runT_unfold. cbn [ConnSpec.step].
  destruct (take_line r) as [[|c l] t| |] eqn:T; [| | |discriminate].
  - destruct (h_content_length h' =? 0) eqn:Z.
    { intros H. apply err_acc in H. destruct H as (o' & -> & _). discriminate. }
    destruct (L <? h_content_length h') eqn:Lt.
    + intros [= <- <-]. split; [|reflexivity]. eapply HF_size; [exact T|]. apply N.ltb_lt. exact Lt.
    + intros H. apply err_acc in H. destruct H as (o' & -> & H).
      destruct (body_err_delivers _ _ _ _ _ _ _ H). destruct (h_expect h'); exact Hnone.
  - destruct Hstop as [e1 P]. rewrite P. intros [= <- <-]. split; [|reflexivity].
    eapply HF_line; [exact T|discriminate|exact P].
  - intros [= <- <-]. split; [|reflexivity]. apply HF_long. exact T.
Qed.

(* the faults are exactly the errors before which nothing is delivered *)
Lemma fault_iff t o e : first_req o = None -> (runT PLine t [] = RErr o e <-> o = [] /\ fault t e).
Proof.
  intros Fr. split; [|intros [-> HF]; apply fault_run; exact HF].
  rewrite runT_unfold. cbn [ConnSpec.step].
  destruct (take_line t) as [l r| |] eqn:T; [| |discriminate].
  - destruct (parse_reqline l) as [rl|e1] eqn:P.
    + rewrite app_nil_r. intros H. destruct (take_line_inv BUF t l r T) as (-> & Hnc & Hfit).
      destruct (hdr_err_inv rl headers_default r o e H Fr) as (hs & h' & r' & -> & Hall & Hf & HF & ->).
      split; [reflexivity|]. eapply FT_hdr; [exact P|split; assumption|exact Hall|exact Hf|reflexivity|exact HF].
    + intros [= <- <-]. split; [reflexivity|]. eapply FT_reqline; eauto.
  - intros [= <- <-]. split; [reflexivity|]. apply FT_long. exact T.
Qed.

Lemma error_classified s : forall o e, runT PLine s [] = RErr o e ->
  exists qs t, Forall WF qs /\ s = enc_all qs ++ t /\ o = outs_all qs /\ fault t e.
Proof.
  induction s as [s IH] using (induction_ltof1 _ (@length N)). unfold ltof in IH. intros o e H.
  destruct (first_req o) as [x|] eqn:Fr.
  - assert (Fr' : first_req (outs_of (parse_stream BUF L s)) = Some x) by (unfold parse_stream; rewrite H; exact Fr).
    destruct (delivered_wellformed BUF BUF_min L s x Fr') as (rlb & rl & hs & hd & body & rest & -> & Prl & Hrl & Hhs & Hf & Hlim & Hlen & Hx).
    rewrite (wellformed_delivered BUF BUF_min L rlb rl hs hd body rest [] Prl Hrl Hhs Hf Hlim Hlen) in H.
    apply err_acc in H. destruct H as (o' & -> & R).
    destruct (IH rest ltac:(rewrite !app_length; cbn; lia) o' e R) as (qs & t & Hall & -> & -> & HF).
    exists (mkQ rlb rl hs hd body :: qs), t. split; [constructor; [unfold WF; cbn; auto 10|exact Hall]|].
    split; [cbn [enc_all flat_map]; unfold enc at 1; cbn [q_rlb q_hs q_body]; rewrite <- !app_assoc; reflexivity|]. split; [reflexivity|exact HF].
  - apply fault_iff in H; [|exact Fr]. destruct H as [-> HF]. exists [], s. repeat split; auto.
Qed.

Theorem stream_error_iff s o e :
  parse_stream BUF L s = RErr o e <->
  exists qs t, Forall WF qs /\ s = enc_all qs ++ t /\ o = outs_all qs /\ fault t e.
Proof.
  split.
  - apply error_classified.
  - intros (qs & t & Hall & -> & -> & HF). unfold parse_stream. rewrite (run_all qs t [] Hall). cbn [app].
    apply fault_run. exact HF.
Qed.

(* in particular the error is unique and so is the list of requests delivered before it: two
   decompositions of the same stream agree *)
Corollary fault_deterministic qs1 t1 e1 qs2 t2 e2 :
  Forall WF qs1 -> Forall WF qs2 -> enc_all qs1 ++ t1 = enc_all qs2 ++ t2 -> fault t1 e1 -> fault t2 e2 ->
  e1 = e2 /\ outs_all qs1 = outs_all qs2.
Proof.
  intros W1 W2 E F1 F2.
  assert (R1 : parse_stream BUF L (enc_all qs1 ++ t1) = RErr (outs_all qs1) e1) by (apply stream_error_iff; eauto 10).
  assert (R2 : parse_stream BUF L (enc_all qs2 ++ t2) = RErr (outs_all qs2) e2) by (apply stream_error_iff; eauto 10).
  rewrite E in R1. rewrite R1 in R2. inversion R2; auto.
Qed.

End Stream.
