(* C08, progress: with clients that keep their connections open, every poll that the epoll
   descriptor enables strictly decreases a well-founded measure (unread client input + waiting
   clients, then unsent output), in any order of the ready events; so after finitely many such
   polls nothing is ready, and then no client input, no unsent output and no waiting client is left.
   Conservation: what a connection writes goes to its own client, in order. *)
From MH Require Export proofs.Server_proofs.

Fixpoint asum {A} (f : A -> nat) (l : list (nat * A)) : nat :=
  match l with [] => 0%nat | (_, v) :: r => (f v + asum f r)%nat end.

Lemma asum_update {A} (f : A -> nat) k v v' (l : list (nat * A)) :
  alookup k l = Some v -> (asum f (aupdate k v' l) + f v = asum f l + f v')%nat.
Proof.
  induction l as [|[k0 v0] r IH]; cbn [alookup aupdate asum]; [discriminate|].
  destruct (Nat.eqb k0 k).
  - intros H; injection H as ->. cbn [asum]. lia.
  - intros H. cbn [asum]. specialize (IH H). lia.
Qed.

Lemma asum_app {A} (f : A -> nat) (a b : list (nat * A)) : asum f (a ++ b) = (asum f a + asum f b)%nat.
Proof. induction a as [|[k v] r IH]; cbn [app asum]; [reflexivity|]. rewrite IH. lia. Qed.

Lemma alookup_update_ex {A} k k' (v : A) l :
  (exists v0, alookup k' l = Some v0) -> exists v1, alookup k' (aupdate k v l) = Some v1.
Proof.
  intros [v0 H]. rewrite alookup_aupdate. destruct (Nat.eqb_spec k k') as [->|]; [rewrite H; cbn|]; eauto.
Qed.

Lemma filter_const {A} (f : A -> bool) b l : (forall x, In x l -> f x = b) -> filter f l = if b then l else [].
Proof.
  induction l as [|a r IH]; intros H; [destruct b; reflexivity|]. cbn [filter]. rewrite (H a (or_introl eq_refl)).
  rewrite IH by (intros x Hx; apply H; right; exact Hx). destruct b; reflexivity.
Qed.

Definition lexlt (a b : nat * nat) : Prop := (fst a < fst b)%nat \/ (fst a = fst b /\ (snd a < snd b)%nat).
Definition lexle (a b : nat * nat) : Prop := lexlt a b \/ a = b.

Lemma lexlt_trans a b c : lexlt a b -> lexlt b c -> lexlt a c.
Proof. unfold lexlt. lia. Qed.

Lemma lexlt_wf : well_founded lexlt.
Proof.
  intros [a b]. revert b. induction a as [a IHa] using (well_founded_induction lt_wf).
  induction b as [b IHb] using (well_founded_induction lt_wf).
  constructor. intros [a' b'] [H|[H1 H2]]; cbn in *.
  - apply IHa. exact H.
  - subst a'. apply IHb. exact H2.
Qed.

Section Prog.
Variable BUF : nat.
Hypothesis BUF_min : (2 <= BUF)%nat.
Hypothesis BUF_u32 : N.of_nat BUF < U32_LIMIT.

Notation cc_read := (cc_read BUF).
Notation handle_event := (handle_event BUF).
Notation handle_all := (handle_all BUF).
Notation poll_with := (poll_with BUF).
Notation CInv := (CInv BUF).
Notation Inv := (Inv BUF).
Notation cc_ok := (cc_ok BUF).

Definition calm_client (cl : client) : Prop := k_open cl = true /\ k_shut_wr cl = false /\ k_shut_rd cl = false.

(* [c_rbuf <> Some []]: a staged response buffer is never empty: try_write stages a whole serialised response and
   drops the buffer with its last byte.  On an empty one a write could accept nothing, which closes the connection. *)
Record Calm (w : world) : Prop := {
  calm_nokill : w_killed w = false;
  calm_clients : forall c cl, alookup c (w_clients w) = Some cl -> calm_client cl;
  calm_conns : forall fd x, alookup fd (w_conns w) = Some x ->
      sc_st x <> SClosed /\ c_rbuf (sc_conn x) <> Some [] /\ exists cl, alookup (sc_client x) (w_clients w) = Some cl;
  calm_inj : forall fd fd' x x', alookup fd (w_conns w) = Some x -> alookup fd' (w_conns w) = Some x' ->
      sc_client x = sc_client x' -> fd = fd';
  calm_backlog_nodup : NoDup (w_backlog w);
  calm_backlog : forall c, In c (w_backlog w) ->
      (exists cl, alookup c (w_clients w) = Some cl) /\
      forall fd x, alookup fd (w_conns w) = Some x -> sc_client x <> c;
}.

Lemma Calm_world0 : Calm world0.
Proof. constructor; cbn; try (intros; discriminate); try tauto. constructor. Qed.

(* the measure: (unread client input + waiting clients, unsent output) *)
Definition m_in (w : world) : nat := (asum (fun cl => length (k_tosrv cl)) (w_clients w) + length (w_backlog w))%nat.
Definition m_out (w : world) : nat := asum (fun x => length (unsent (sc_conn x))) (w_conns w).
Definition meas (w : world) : nat * nat := (m_in w, m_out w).

(* the kernel contract for a ready event in a calm world (K2: readiness is truthful) *)
Definition evt_live (w : world) (e : event) : Prop :=
  match e with
  | EvIn fd _ => exists x, alookup fd (w_conns w) = Some x /\ sc_out x = false /\
                         k_tosrv (client_of w (sc_client x)) <> []
  | EvOut fd _ => exists x, alookup fd (w_conns w) = Some x /\ sc_out x = true
  | EvListener nf => alookup nf (w_conns w) = None /\ w_backlog w <> []
  | EvHup _ | EvKill => False
  end.

Lemma evt_live_ok w e : evt_live w e -> evt_ok w e.
Proof.
  destruct e as [fd|fd kk|fd kk|nf|]; cbn; try tauto.
  - intros (x & H & Ho & _). eauto.
Qed.

(* responses the server generates itself while reading *)
Definition server_generated (r : response) : Prop :=
  (exists v, r = response_new v Continue) \/ (exists e, r = bad_request_response e).

Lemma conts_generated outs : Forall server_generated (conts_of outs).
Proof.
  induction outs as [|o r IH]; cbn [conts_of]; [constructor|]. destruct o; [exact IH|].
  constructor; [left; eauto|exact IH].
Qed.

Lemma reply_generated outs e : Forall server_generated (conts_of outs ++ [bad_request_response e]).
Proof. apply Forall_app. split; [apply conts_generated|]. constructor; [right; eauto|constructor]. Qed.

Definition cl_set_tosrv (cl : client) (t : bytes) : client :=
  mkCl (k_open cl) (k_shut_wr cl) (k_shut_rd cl) t (k_rx cl) (k_place cl).

Lemma client_of_lookup w c cl : alookup c (w_clients w) = Some cl -> client_of w c = cl.
Proof. intros H. unfold client_of. rewrite H. reflexivity. Qed.

(* what the kernel reports of the client of an entry in a calm world: no hang-up, and it can receive *)
Lemma calm_peer w fd x : Calm w -> alookup fd (w_conns w) = Some x ->
  k_hup (client_of w (sc_client x)) = false /\ k_can_receive (client_of w (sc_client x)) = true.
Proof.
  intros HC HL. destruct (calm_conns _ HC _ _ HL) as (_ & _ & cl & Hcl). rewrite (client_of_lookup _ _ _ Hcl).
  destruct (calm_clients _ HC _ _ Hcl) as (K1 & K2 & K3). unfold k_hup, k_can_receive. rewrite K1, K2, K3. auto.
Qed.

(* [Calm] reads the kernel's side of the world -- the clients and the backlog -- through the domain of the client
   table, the flags of its records and the members of the backlog.  With the connection table as it is, it
   survives a change that keeps every record calm, forgets no client, and lets wait only clients that waited
   before or are not connected. *)
Lemma calm_kernel w w' :
  Calm w -> w_killed w' = w_killed w -> w_conns w' = w_conns w ->
  (forall c cl', alookup c (w_clients w') = Some cl' -> calm_client cl') ->
  (forall c cl, alookup c (w_clients w) = Some cl -> exists cl', alookup c (w_clients w') = Some cl') ->
  NoDup (w_backlog w') ->
  (forall c, In c (w_backlog w') -> In c (w_backlog w) \/
     ((exists cl', alookup c (w_clients w') = Some cl') /\ forall fd x, alookup fd (w_conns w) = Some x -> sc_client x <> c)) ->
  Calm w'.
Proof.
  intros [C1 C2 C3 C4 C5 C6] Ek Ec Hcalm Hdom Hnd Hb. constructor; rewrite ?Ek, ?Ec; auto.
  - intros fd x H. destruct (C3 _ _ H) as (A1 & A2 & cl & A3). eauto.
  - intros c Hin. destruct (Hb c Hin) as [Hold|Hnew]; [|exact Hnew].
    destruct (C6 c Hold) as ((cl & A1) & A2). eauto.
Qed.

(* one record is replaced by a calm one, and some of the waiting clients may stop waiting *)
Lemma calm_record w w' c cl' :
  Calm w -> calm_client cl' -> w_killed w' = w_killed w -> w_conns w' = w_conns w ->
  w_clients w' = aupdate c cl' (w_clients w) -> NoDup (w_backlog w') ->
  (forall c0, In c0 (w_backlog w') -> In c0 (w_backlog w)) -> Calm w'.
Proof.
  intros HC Hcc Ek Ec Ecl Hnd Hb. apply (calm_kernel w w' HC Ek Ec); rewrite ?Ecl; auto.
  - intros c0 cl0 H. apply alookup_update_cases in H. destruct H as [(_ & -> & _)|(_ & H)]; [exact Hcc|exact (calm_clients _ HC _ _ H)].
  - intros c0 cl0 H. apply alookup_update_ex. eauto.
Qed.

Lemma calm_set_client w c cl' : Calm w -> calm_client cl' -> Calm (set_client w c cl').
Proof. intros HC Hcc. apply (calm_record w _ c cl' HC Hcc); auto. exact (calm_backlog_nodup _ HC). Qed.

(* The table's side: every entry of the new table is an entry of the old one, but for the one at [fd], which
   is [y]; no entry elsewhere has the client of [y], and that client is not waiting. *)
Lemma calm_table w w' fd y :
  Calm w -> w_killed w' = w_killed w -> w_clients w' = w_clients w -> w_backlog w' = w_backlog w ->
  (forall fd' z, alookup fd' (w_conns w') = Some z ->
     (fd' = fd /\ z = y) \/ (fd' <> fd /\ alookup fd' (w_conns w) = Some z)) ->
  sc_st y <> SClosed -> c_rbuf (sc_conn y) <> Some [] -> (exists cl, alookup (sc_client y) (w_clients w) = Some cl) ->
  (forall fd' z, alookup fd' (w_conns w) = Some z -> sc_client z = sc_client y -> fd' = fd) ->
  ~ In (sc_client y) (w_backlog w) -> Calm w'.
Proof.
  intros [C1 C2 C3 C4 C5 C6] Ek Ecl Eb Cases Hys Hyb Hyc Hone Hnb. constructor; rewrite ?Ek, ?Ecl, ?Eb; auto.
  - intros fd' z H. destruct (Cases _ _ H) as [(_ & ->)|(_ & H0)]; eauto.
  - intros f1 f2 z1 z2 H1 H2 E.
    destruct (Cases _ _ H1) as [(-> & ->)|(N1 & L1)]; destruct (Cases _ _ H2) as [(-> & ->)|(N2 & L2)].
    + reflexivity.
    + symmetry. exact (Hone _ _ L2 (eq_sym E)).
    + exact (Hone _ _ L1 E).
    + exact (C4 _ _ _ _ L1 L2 E).
  - intros c Hin. destruct (C6 c Hin) as (A1 & A2). split; [exact A1|].
    intros fd' z H. destruct (Cases _ _ H) as [(_ & ->)|(_ & H0)]; [congruence|eauto].
Qed.

Lemma calm_set_conn w fd x y :
  Calm w -> alookup fd (w_conns w) = Some x -> sc_client y = sc_client x -> sc_st y <> SClosed ->
  c_rbuf (sc_conn y) <> Some [] -> Calm (set_conn w fd y).
Proof.
  intros HC HL Hyc Hys Hyb. destruct (calm_conns _ HC _ _ HL) as (_ & _ & Hcl).
  apply (calm_table w _ fd y HC); auto; rewrite ?Hyc; auto.
  - intros fd' z H. apply alookup_update_cases in H. tauto.
  - intros fd' z Hz E. exact (calm_inj _ HC _ _ _ _ Hz HL E).
  - intros Hin. exact (proj2 (calm_backlog _ HC _ Hin) _ _ HL eq_refl).
Qed.

Lemma calm_update w fd x y cl' :
  Calm w -> alookup fd (w_conns w) = Some x -> calm_client cl' ->
  sc_client y = sc_client x -> sc_st y <> SClosed -> c_rbuf (sc_conn y) <> Some [] ->
  Calm (set_client (set_conn w fd y) (sc_client x) cl').
Proof. intros HC HL Hcc Hyc Hys Hyb. apply calm_set_client; [|exact Hcc]. exact (calm_set_conn w fd x y HC HL Hyc Hys Hyb). Qed.

(* the listener takes the oldest waiting client [c] off the backlog: refused, or given an entry at the unused [nf] *)
Lemma calm_listen w c rest nf :
  Calm w -> w_backlog w = c :: rest -> alookup nf (w_conns w) = None ->
  Calm (refused_world w c (client_of w c) rest) /\ Calm (accepted_world w c (client_of w c) rest nf).
Proof.
  intros HC Bk Hnf. pose proof (calm_backlog_nodup _ HC) as Hnd. rewrite Bk in Hnd. inversion Hnd as [|? ? Hnot Hnd']; subst.
  destruct (calm_backlog _ HC c) as ((cl & Hcl) & Hfree); [rewrite Bk; left; reflexivity|].
  rewrite (client_of_lookup _ _ _ Hcl). pose proof (calm_clients _ HC _ _ Hcl) as Hcc.
  assert (Pop : forall w1 cl', w_killed w1 = w_killed w -> w_conns w1 = w_conns w ->
            w_clients w1 = aupdate c cl' (w_clients w) -> w_backlog w1 = rest -> calm_client cl' -> Calm w1).
  { intros w1 cl' Ek Ec Ecl Eb Hcc'. apply (calm_record w w1 c cl' HC Hcc' Ek Ec Ecl); rewrite Eb, ?Bk; [exact Hnd'|].
    intros c0 Hin. right. exact Hin. }
  split; [exact (Pop (refused_world w c cl rest) _ eq_refl eq_refl eq_refl eq_refl Hcc)|].
  set (w' := accepted_world w c cl rest nf).
  set (w1 := Server.mkW (w_clients w') (w_conns w) rest (w_tokens w) (w_nextg w) (w_limit w) (w_killed w)).
  apply (calm_table w1 w' nf (mkSC (set_payload_max_size conn_new (w_limit w)) AwaitIn 0 c false (w_nextg w)));
    [exact (Pop w1 _ eq_refl eq_refl eq_refl eq_refl Hcc)|reflexivity..| | | | | |];
    cbn [w1 w' accepted_world w_conns w_clients w_backlog sc_st sc_conn sc_client].
  - intros fd' z H. rewrite alookup_app_end in H. destruct (alookup fd' (w_conns w)) eqn:E.
    + right. split; [congruence|exact H].
    + destruct (Nat.eqb_spec nf fd'); [injection H as <-; auto|discriminate].
  - discriminate.
  - discriminate.
  - apply alookup_update_ex. eauto.
  - intros fd' z Hz E. destruct (Hfree _ _ Hz E).
  - exact Hnot.
Qed.

Lemma m_in_update w w' c cl cl' :
  alookup c (w_clients w) = Some cl -> w_clients w' = aupdate c cl' (w_clients w) ->
  (m_in w' + length (k_tosrv cl) + length (w_backlog w) = m_in w + length (k_tosrv cl') + length (w_backlog w'))%nat.
Proof using.
  clear BUF_min BUF_u32. intros Hcl E. unfold m_in. rewrite E.
  pose proof (asum_update (fun cl => length (k_tosrv cl)) _ _ cl' _ Hcl) as A. cbn beta in A. lia.
Qed.

(* the bytes a client has been or will be sent on a connection: received-but-unread ++ unsent *)
Definition wire (w : world) (x : sconn) : bytes := k_rx (client_of w (sc_client x)) ++ unsent (sc_conn x).

Lemma unsent_grow c c' gen : c_rq c' = c_rq c ++ gen -> c_rbuf c' = c_rbuf c ->
  unsent c' = unsent c ++ flat_map serialize gen.
Proof. intros H1 H2. unfold unsent. rewrite H1, H2, flat_map_app, app_assoc. reflexivity. Qed.

Lemma unsent_done c : c_rbuf c <> Some [] -> pending_write c = false -> unsent c = [].
Proof.
  intros Hb Hp. destruct (unsent c) eqn:U; [reflexivity|].
  rewrite (proj2 (pending_iff c Hb)) in Hp; [discriminate|rewrite U; discriminate].
Qed.

Definition conserved (w w' : world) : Prop :=
  forall fd x, alookup fd (w_conns w) = Some x ->
    exists x' gen, alookup fd (w_conns w') = Some x' /\ sc_client x' = sc_client x /\
                   wire w' x' = wire w x ++ flat_map serialize gen /\ Forall server_generated gen.

Lemma conserved_refl w : conserved w w.
Proof. intros fd x HL. exists x, []. cbn. rewrite app_nil_r. auto. Qed.

Lemma conserved_trans w1 w2 w3 : conserved w1 w2 -> conserved w2 w3 -> conserved w1 w3.
Proof.
  intros H12 H23 fd x HL. destruct (H12 fd x HL) as (x2 & g2 & L2 & C2 & W2 & F2).
  destruct (H23 fd x2 L2) as (x3 & g3 & L3 & C3 & W3 & F3).
  exists x3, (g2 ++ g3). split; [exact L3|]. split; [congruence|]. split.
  - rewrite W3, W2, flat_map_app, app_assoc. reflexivity.
  - apply Forall_app. auto.
Qed.

Lemma client_of_update_same w fd y c cl cl' : alookup c (w_clients w) = Some cl ->
  client_of (set_client (set_conn w fd y) c cl') c = cl'.
Proof. intros H. rewrite client_of_set_client, Nat.eqb_refl. cbn [set_conn w_clients]. rewrite H. reflexivity. Qed.

(* one IN event in a world that satisfies the invariant: what it leaves of the entry and of its client *)
Lemma read_event w toks fd kk w' ys :
  Inv w toks -> evt_ok w (EvIn fd kk) -> handle_event w (EvIn fd kk) = inl (w', ys) ->
  exists x y cl' gen, alookup fd (w_conns w) = Some x /\ w' = set_client (set_conn w fd y) (sc_client x) cl' /\
    same_peer x y /\ same_flags (client_of w (sc_client x)) cl' /\ k_rx cl' = k_rx (client_of w (sc_client x)) /\
    c_rq (sc_conn y) = c_rq (sc_conn x) ++ gen /\ c_rbuf (sc_conn y) = c_rbuf (sc_conn x) /\
    Forall server_generated gen /\
    (k_tosrv (client_of w (sc_client x)) <> [] ->
     (sc_st x <> SClosed -> sc_st y <> SClosed) /\
     (length (k_tosrv cl') < length (k_tosrv (client_of w (sc_client x))))%nat).
Proof using BUF_min BUF_u32.
  intros HI (x & HL & _) H. destruct (inv_cc _ _ _ HI _ _ HL) as [Hst [ph I]].
  destruct (handle_in BUF BUF_min BUF_u32 w fd kk x ph HL Hst I)
    as [O|(y & rs & gen & E & Eg & Ec & _ & Hrq & Hrb & _ & _ & Hd)]; [congruence|].
  rewrite H in E. injection E as -> ->. exists x, y. do 2 eexists.
  split; [exact HL|]. split; [reflexivity|]. split; [split; assumption|]. split; [repeat split|]. split; [reflexivity|].
  split; [exact Hrq|]. split; [exact Hrb|].
  destruct (in_data_fits BUF BUF_min BUF_u32 w x kk ph I) as [Hdata _].
  destruct (in_data BUF w x kk) as [|b d].
  - destruct Hd as (_ & _ & ->). split; [constructor|]. intros Hne. destruct (Hdata Hne eq_refl).
  - destruct Hd as (_ & Hopen & _ & Hd). split.
    + destruct (runT _ _ _ _ _) as [? ? outs|outs e|]; [| |destruct Hd]; destruct Hd as (_ & -> & _);
        [apply conts_generated|apply reply_generated].
    + intros Hne. split; [exact Hopen|]. cbn [k_tosrv]. rewrite skipn_length.
      destruct (k_tosrv (client_of w (sc_client x))); [congruence|cbn [length]; lia].
Qed.

(* an IN or OUT event on the entry at [fd], in the terms the measure and the wire are stated in *)
Lemma live_conn w toks e fd w' ys :
  Inv w toks -> Calm w -> evt_live w e -> ev_key e = KConn fd -> handle_event w e = inl (w', ys) ->
  exists x y cl cl' gen,
    alookup fd (w_conns w) = Some x /\ alookup (sc_client x) (w_clients w) = Some cl /\
    w' = set_client (set_conn w fd y) (sc_client x) cl' /\
    sc_client y = sc_client x /\ sc_st y <> SClosed /\ c_rbuf (sc_conn y) <> Some [] /\ calm_client cl' /\
    ((length (k_tosrv cl') < length (k_tosrv cl))%nat \/
     (k_tosrv cl' = k_tosrv cl /\ (length (unsent (sc_conn y)) < length (unsent (sc_conn x)))%nat)) /\
    k_rx cl' ++ unsent (sc_conn y) = (k_rx cl ++ unsent (sc_conn x)) ++ flat_map serialize gen /\
    Forall server_generated gen.
Proof using BUF_min BUF_u32.
  intros HI HC Hlive K H. destruct e as [g|g kk|g kk| |]; try discriminate; try (destruct Hlive; fail); injection K as ->.
  - destruct Hlive as (x & HL & Ho & Hne).
    destruct (read_event w toks fd kk w' ys HI (ex_intro _ x (conj HL Ho)) H)
      as (x0 & y & cl' & gen & HL0 & -> & [_ Hc] & (F1 & F2 & F3 & _) & Erx & Hq & Hb & Fg & Hin).
    rewrite HL in HL0. injection HL0 as <-. destruct (Hin Hne) as [Hopen Hless].
    destruct (calm_conns _ HC _ _ HL) as (Hst & Hrb & cl & Hcl). rewrite (client_of_lookup _ _ _ Hcl) in *.
    exists x, y, cl, cl', gen.
    split; [exact HL|]. split; [exact Hcl|]. split; [reflexivity|]. split; [exact Hc|]. split; [exact (Hopen Hst)|].
    split; [rewrite Hb; exact Hrb|]. split; [unfold calm_client; rewrite F1, F2, F3; exact (calm_clients _ HC _ _ Hcl)|].
    split; [left; exact Hless|]. split; [|exact Fg]. rewrite Erx, (unsent_grow _ _ gen Hq Hb), app_assoc. reflexivity.
  - destruct Hlive as (x & HL & Ho).
    destruct (calm_conns _ HC _ _ HL) as (Hst & Hrb & cl & Hcl).
    destruct (inv_cc _ _ _ HI _ _ HL) as [Hok _].
    destruct (handle_out BUF w fd kk x HL Hok Ho) as (y & sent & rq & rb & E & _ & _ & Hc & _ & _ & D).
    rewrite H in E. injection E as -> _. destruct (calm_peer w fd x HC HL) as [_ CR]. rewrite (client_of_lookup _ _ _ Hcl) in *.
    assert (S0 : sc_st x = AwaitOut).
    { unfold st_ok in Hok. destruct (sc_st x); [destruct Hok; congruence|reflexivity|congruence]. }
    (* the write cannot fail: the client can receive and the staged buffer is not empty *)
    destruct (D Hrb) as ((Hrby & _ & _ & Hopen) & Hs). destruct (Hopen CR S0) as [Sy Hu]. specialize (Hs CR S0).
    eexists x, y, cl, _, [].
    split; [exact HL|]. split; [exact Hcl|]. split; [reflexivity|]. split; [exact Hc|]. split; [exact Sy|].
    split; [exact Hrby|]. split; [exact (calm_clients _ HC _ _ Hcl)|]. split.
    + right. split; [reflexivity|]. rewrite Hu, app_length. destruct sent; [congruence|cbn [length]; lia].
    + split; [|constructor]. cbn [k_rx flat_map]. rewrite Hu, app_nil_r, app_assoc. reflexivity.
Qed.

(* an event that does not name connection fd leaves it and its client's queues alone *)
Lemma untouched_frame w e w' ys fd x :
  Calm w -> handle_event w e = inl (w', ys) -> alookup fd (w_conns w) = Some x -> ev_key e <> KConn fd ->
  alookup fd (w_conns w') = Some x /\ client_of w' (sc_client x) = client_of w (sc_client x).
Proof.
  intros HC H HL Hk. apply (other_key_frame BUF w e w' ys fd x H HL Hk).
  - intros fd0 x0 HL0 E. exact (calm_inj _ HC _ _ _ _ HL0 HL E).
  - (* no connection belongs to a client that is still waiting *)
    intros c rest Bk E. destruct (calm_backlog _ HC c) as (_ & Hfresh); [rewrite Bk; left; reflexivity|].
    exact (Hfresh fd x HL (eq_sym E)).
Qed.

(* One live event: the world stays calm, the measure strictly decreases, every wire is conserved,
   and the events of other keys stay live. *)
Theorem live_step w toks e w' ys :
  Inv w toks -> Calm w -> evt_live w e -> handle_event w e = inl (w', ys) ->
  Calm w' /\ lexlt (meas w') (meas w) /\ conserved w w' /\
  forall e', evt_live w e' -> ev_key e' <> ev_key e -> evt_live w' e'.
Proof using BUF_min BUF_u32.
  intros HI HC Hlive H. pose proof (fun fd x => untouched_frame w e w' ys fd x HC H) as Fr.
  (* the entries the event does not name keep their wires, and their events stay live *)
  assert (Cons : forall fd0 x0, alookup fd0 (w_conns w) = Some x0 -> ev_key e <> KConn fd0 ->
            exists x' gen, alookup fd0 (w_conns w') = Some x' /\ sc_client x' = sc_client x0 /\
                           wire w' x' = wire w x0 ++ flat_map serialize gen /\ Forall server_generated gen).
  { intros fd0 x0 HL0 Hk. destruct (Fr fd0 x0 HL0 Hk) as [L2 C2]. exists x0, []. unfold wire. rewrite C2. cbn [flat_map].
    rewrite app_nil_r. auto. }
  assert (Live : forall e', evt_live w e' -> ev_key e' <> ev_key e ->
            (forall nf, e' = EvListener nf -> evt_live w' e') -> evt_live w' e').
  { intros e' L' Hk Lis. destruct e' as [fd'|fd' kk'|fd' kk'|nf'|]; try (destruct L'; fail); cbn [ev_key] in Hk.
    - destruct L' as (x' & HL' & Ho' & Ht'). destruct (Fr fd' x' HL') as [L2 C2]; [congruence|]. exists x'. rewrite C2. auto.
    - destruct L' as (x' & HL' & Ho'). destruct (Fr fd' x' HL') as [L2 _]; [congruence|]. exists x'. auto.
    - eauto. }
  destruct (handle_event_cases BUF w e w' ys H) as [(fd & K & _)|(nf & -> & _ & ->)].
  - destruct (live_conn w toks e fd w' ys HI HC Hlive K H)
      as (x & y & cl & cl' & gen & HL & Hcl & -> & Hyc & Hys & Hyb & Hcc & Hm & Hw & Fg).
    split; [apply (calm_update w fd x y cl'); assumption|]. split; [|split].
    + pose proof (m_in_update w (set_client (set_conn w fd y) (sc_client x) cl') _ cl cl' Hcl eq_refl) as M1.
      cbn [set_client set_conn w_backlog] in M1.
      pose proof (asum_update (fun x => length (unsent (sc_conn x))) _ _ y _ HL) as M2. cbn beta in M2.
      unfold lexlt, meas, m_out. cbn [fst snd set_client set_conn w_conns].
      destruct Hm as [L|[E L]]; [left; lia|right; rewrite E in M1; lia].
    + (* the entry's own wire grows by what it generated *)
      intros fd0 x0 HL0. destruct (Nat.eq_dec fd0 fd) as [->|Hne]; [|apply Cons; [exact HL0|congruence]].
      rewrite HL in HL0. injection HL0 as <-. exists y, gen.
      cbn [set_client set_conn w_conns]. split; [eapply alookup_update_same; eauto|]. split; [exact Hyc|]. split; [|exact Fg].
      unfold wire. rewrite Hyc, (client_of_update_same _ _ _ _ cl _ Hcl), (client_of_lookup _ _ _ Hcl). exact Hw.
    + intros e' L' Hk. apply (Live e' L' Hk). intros nf' ->. destruct L' as (Hnf & Hb).
      split; [|exact Hb]. cbn [set_client set_conn w_conns]. rewrite alookup_update_other; [exact Hnf|congruence].
  - (* a waiting client is refused or accepted *)
    destruct Hlive as (Hnf & Hb). destruct (w_backlog w) as [|c rest] eqn:Bk; [congruence|].
    destruct (calm_backlog _ HC c) as ((cl & Hcl) & _); [rewrite Bk; left; reflexivity|].
    destruct (calm_listen w c rest nf HC Bk Hnf) as [Cr Ca].
    split; [destruct (Nat.eqb _ _); assumption|]. split; [|split].
    + left. unfold meas. cbn [fst]. rewrite (client_of_lookup _ _ _ Hcl).
      destruct (Nat.eqb _ _);
        [pose proof (m_in_update w (refused_world w c cl rest) c cl _ Hcl eq_refl) as M
        |pose proof (m_in_update w (accepted_world w c cl rest nf) c cl _ Hcl eq_refl) as M];
        rewrite Bk in M; cbn [refused_world accepted_world w_backlog k_tosrv length] in M; lia.
    + intros fd0 x0 HL0. apply Cons; [exact HL0|discriminate].
    + intros e' L' Hk. apply (Live e' L' Hk). intros nf' ->. destruct Hk. reflexivity.
Qed.

(* What is to be shown of a truthful batch in a calm world: [P], of the world and the yields so far, kept
   by every event the batch may hold ([R]).  The events [rest] that the same readiness report holds
   beside the batch stay live. *)
Section LiveBatch.
Variable R : event -> Prop.
Variable P : world -> list yield -> Prop.
Hypothesis keep : forall w toks acc e w' ys, Inv w toks -> Calm w -> evt_live w e -> R e ->
  handle_event w e = inl (w', ys) -> P w acc -> P w' (acc ++ ys).

Lemma live_batch : forall es rest w toks acc w' ys,
  Inv w toks -> Calm w -> Forall (evt_live w) (es ++ rest) -> NoDup (map ev_key (es ++ rest)) -> Forall R es ->
  handle_all w es acc = inl (w', ys) -> P w acc ->
  P w' ys /\ Calm w' /\ (exists toks', Inv w' toks') /\ Forall (evt_live w') rest.
Proof using BUF_min BUF_u32 keep.
  intros es rest w toks acc w' ys HI HC Hl Hnd HR Hrun HP.
  set (P' := fun w1 ys1 => P w1 ys1 /\ Calm w1 /\ exists toks1, Inv w1 toks1).
  assert (Step : forall w0 ys0 e w1 ys1, P' w0 ys0 -> evt_live w0 e -> R e -> handle_event w0 e = inl (w1, ys1) ->
            P' w1 (ys0 ++ ys1) /\ forall e', evt_live w0 e' -> ev_key e' <> ev_key e -> evt_live w1 e').
  { intros w0 ys0 e w1 ys1 (P0 & C0 & toks0 & I0) He Re Hh.
    destruct (live_step w0 toks0 e w1 ys1 I0 C0 He Hh) as (C1 & _ & _ & Fr).
    destruct (handle_inv BUF BUF_min BUF_u32 w0 toks0 e w1 ys1 I0 (evt_live_ok _ _ He) Hh) as [I1 _].
    split; [|exact Fr]. split; [exact (keep w0 toks0 ys0 e w1 ys1 I0 C0 He Re Hh P0)|eauto]. }
  destruct (batch_prefix BUF evt_live R P' Step es rest w acc w' ys (conj HP (conj HC (ex_intro _ toks HI))) Hl Hnd HR Hrun)
    as [(A1 & A2 & A3) A4]. auto.
Qed.
End LiveBatch.

Lemma sweep_calm w : Calm w -> NoDup (map fst (w_conns w)) -> sweep w = w.
Proof.
  intros HC Hnd. unfold sweep.
  assert (Hd : forall p, In p (w_conns w) -> is_done (snd p) = false).
  { intros [fd x] Hin. cbn [snd]. destruct (calm_conns _ HC fd x (alookup_in_nodup _ _ _ Hnd Hin)) as (Hs & _).
    unfold is_done. destruct (sc_st x); [reflexivity|reflexivity|congruence]. }
  rewrite (filter_const _ false _ Hd). cbn [fold_left].
  rewrite (filter_const _ true) by (intros p Hp; rewrite (Hd p Hp); reflexivity).
  destruct w; reflexivity.
Qed.

Theorem poll_live w toks es w' ys :
  Inv w toks -> Calm w -> Forall (evt_live w) es -> NoDup (map ev_key es) ->
  poll_with w es = PYield w' ys ->
  Calm w' /\ Inv w' (ytoks ys ++ toks) /\ lexlt (meas w') (meas w) /\ conserved w w' /\
  handle_all w es [] = inl (w', ys).
Proof using BUF_min BUF_u32.
  intros HI HC Hall Hnd Hp. destruct (poll_with_yield BUF w es w' ys Hp) as (Hne & w1 & Hh & ->). pose proof Hh as Hrun.
  pose proof (batch_outcome BUF BUF_min BUF_u32 es w toks HI (Forall_impl _ (evt_live_ok w) Hall) Hnd) as O.
  rewrite Hh in O. destruct O as [HI1 _].
  (* the first event makes the measure smaller, the others do not make it larger *)
  destruct es as [|e t]; [congruence|]. cbn [Server.handle_all] in Hh.
  destruct (handle_event w e) as [[w0 ys0]|] eqn:He; [|discriminate].
  inversion Hall as [|? ? Le Lt]; subst. inversion Hnd as [|? ? Hnot Hnd']; subst.
  destruct (live_step w toks e w0 ys0 HI HC Le He) as (C0 & L0 & Cs0 & Fr).
  destruct (handle_inv BUF BUF_min BUF_u32 w toks e w0 ys0 HI (evt_live_ok _ _ Le) He) as [I0 _].
  assert (Lt0 : Forall (evt_live w0) (t ++ [])).
  { rewrite app_nil_r. apply Forall_forall. intros e' Hin. rewrite Forall_forall in Lt. apply Fr; [exact (Lt _ Hin)|].
    intros E. apply Hnot. rewrite <- E. apply in_map, Hin. }
  rewrite <- (app_nil_r t) in Hnd'.
  pose (P := fun (w2 : world) (_ : list yield) => w2 = w0 \/ (lexlt (meas w2) (meas w0) /\ conserved w0 w2)).
  assert (Keep : forall w2 toks2 acc e2 w3 ys3, Inv w2 toks2 -> Calm w2 -> evt_live w2 e2 -> True ->
            handle_event w2 e2 = inl (w3, ys3) -> P w2 acc -> P w3 (acc ++ ys3)).
  { intros w2 toks2 acc e2 w3 ys3 I2 C2 L2 _ H3 P2. right.
    destruct (live_step w2 toks2 e2 w3 ys3 I2 C2 L2 H3) as (_ & L & C & _).
    destruct P2 as [->|[L' C']]; [auto|]. split; [exact (lexlt_trans _ _ _ L L')|exact (conserved_trans _ _ _ C' C)]. }
  destruct (live_batch (fun _ => True) P Keep t [] w0 _ _ w1 ys I0 C0 Lt0 Hnd'
              (proj2 (Forall_forall _ _) (fun _ _ => Logic.I)) Hh (or_introl eq_refl)) as (P1 & C1 & _ & _).
  (* nothing is swept, so the poll is its batch *)
  rewrite (sweep_calm w1 C1 (inv_nodup _ _ _ HI1)). split; [exact C1|]. split; [exact HI1|].
  destruct P1 as [->|[L1 Cs1]]; [auto|]. split; [exact (lexlt_trans _ _ _ L1 L0)|]. split; [exact (conserved_trans _ _ _ Cs0 Cs1)|exact Hrun].
Qed.

(* C08 progress: every poll enabled by truthful readiness, in any order of the ready events,
   strictly decreases the measure and keeps the world calm *)
Theorem poll_progress w toks es w' ys :
  Inv w toks -> Calm w -> Forall (evt_live w) es -> NoDup (map ev_key es) ->
  poll_with w es = PYield w' ys ->
  Calm w' /\ Inv w' (ytoks ys ++ toks) /\ lexlt (meas w') (meas w).
Proof using BUF_min BUF_u32. intros HI HC Hall Hnd Hp. destruct (poll_live w toks es w' ys HI HC Hall Hnd Hp) as (A1 & A2 & A3 & _). auto. Qed.

(* C07/C08: over a poll, every connection's wire (bytes its client has received but not yet
   read, followed by the connection's unsent output) is only ever EXTENDED, and only by responses
   the server generated for that client's own input (100 Continue, 400) *)
Theorem poll_conserves w toks es w' ys :
  Inv w toks -> Calm w -> Forall (evt_live w) es -> NoDup (map ev_key es) ->
  poll_with w es = PYield w' ys -> conserved w w'.
Proof using BUF_min BUF_u32. intros HI HC Hall Hnd Hp. apply (poll_live w toks es w' ys HI HC Hall Hnd Hp). Qed.

Lemma ready_events_live w toks : Inv w toks -> Calm w -> Forall (evt_live w) (ready_events w).
Proof using BUF_min BUF_u32.
  intros HI HC. apply Forall_forall. intros e Hin. apply In_ready_events in Hin.
  destruct Hin as [[_ K]|[(fd & x & Hin & Ce)|[-> Hb]]].
  - rewrite (calm_nokill _ HC) in K. discriminate.
  - pose proof (alookup_in_nodup _ _ _ (inv_nodup _ _ _ HI) Hin) as HL.
    destruct (conn_event_cases w fd x e Ce) as [[_ Hh]|[(-> & _ & Ho)|(-> & _ & Ho & Ht)]]; cbn; eauto.
    rewrite (proj1 (calm_peer w fd x HC HL)) in Hh. discriminate.
  - split; [apply fresh_fd_unused|exact Hb].
Qed.

Theorem canonical_poll_live w toks w' ys :
  Inv w toks -> Calm w -> poll BUF w = PYield w' ys ->
  Calm w' /\ Inv w' (ytoks ys ++ toks) /\ lexlt (meas w') (meas w) /\ conserved w w' /\
  handle_all w (ready_events w) [] = inl (w', ys).
Proof using BUF_min BUF_u32.
  intros HI HC. unfold poll. apply poll_live; auto.
  - eapply ready_events_live; eauto.
  - apply (ready_events_ok BUF BUF_min BUF_u32 w toks HI).
Qed.

Theorem canonical_poll_progress w toks w' ys :
  Inv w toks -> Calm w -> poll BUF w = PYield w' ys ->
  Calm w' /\ Inv w' (ytoks ys ++ toks) /\ lexlt (meas w') (meas w).
Proof using BUF_min BUF_u32.
  intros HI HC Hp. destruct (canonical_poll_live w toks w' ys HI HC Hp) as (A1 & A2 & A3 & _). auto.
Qed.

(* no infinite polling: every chain of polls (each with an arbitrary truthful batch in an
   arbitrary order) is finite *)
Definition poll_step (w' w : world) : Prop :=
  exists toks es ys, Inv w toks /\ Calm w /\ Forall (evt_live w) es /\ NoDup (map ev_key es) /\
                     poll_with w es = PYield w' ys.

Theorem no_infinite_polling : forall w, Acc poll_step w.
Proof.
  intros w. remember (meas w) as m eqn:Em. revert w Em.
  induction m as [m IH] using (well_founded_induction lexlt_wf). intros w ->.
  constructor. intros w' (toks & es & ys & HI & HC & Hall & Hnd & Hp).
  destruct (poll_progress w toks es w' ys HI HC Hall Hnd Hp) as (_ & _ & Hlt).
  eapply IH; [exact Hlt|reflexivity].
Qed.

(* when nothing is ready in a calm world, nothing is left to do *)
Theorem blocked_means_done w toks :
  Inv w toks -> Calm w -> ready_events w = [] ->
  w_backlog w = [] /\
  forall fd x, alookup fd (w_conns w) = Some x ->
    sc_st x = AwaitIn /\ unsent (sc_conn x) = [] /\ k_tosrv (client_of w (sc_client x)) = [].
Proof.
  intros HI HC Hr. split; [destruct (w_backlog w) eqn:Bk; [reflexivity|]; destruct (backlog_wakes w); [rewrite Bk; discriminate|exact Hr]|].
  intros fd x HL. destruct (calm_conns _ HC _ _ HL) as (Hs & Hrb & _). destruct (inv_cc _ _ _ HI _ _ HL) as [Hok _].
  (* no lost wake-up, read backwards: the entry has nothing to write and its client has sent nothing *)
  pose proof (fun Hc => no_lost_wakeup BUF w toks fd x HI (alookup_some_in _ _ _ HL) Hc Hr) as N.
  unfold st_ok in Hok. destruct (sc_st x); [|destruct N; auto|congruence]. destruct Hok as [_ Hp].
  split; [reflexivity|]. split.
  - exact (unsent_done _ Hrb Hp).
  - destruct (k_tosrv (client_of w (sc_client x))) eqn:T; [reflexivity|]. destruct N. right. right. split; [reflexivity|discriminate].
Qed.

(* responding: the response is appended to the wire of the connection named by the token, every
   other wire is unchanged, the world stays calm *)
Theorem respond_conserves w t1 t2 fd g r w' :
  Inv w (t1 ++ (fd, g) :: t2) -> Calm w -> respond w fd r = inl w' ->
  Calm w' /\
  (exists x x', alookup fd (w_conns w) = Some x /\ sc_gid x = g /\ alookup fd (w_conns w') = Some x' /\
                sc_client x' = sc_client x /\ wire w' x' = wire w x ++ serialize r) /\
  forall fd0 x0, fd0 <> fd -> alookup fd0 (w_conns w) = Some x0 -> alookup fd0 (w_conns w') = Some x0 /\ wire w' x0 = wire w x0.
Proof.
  intros HI HC Hr. destruct (inv_tok _ _ _ HI fd g) as (x & HL & Hg); [apply in_elt|].
  destruct (calm_conns _ HC _ _ HL) as (Hs & Hrb & _).
  apply respond_inl in Hr. rewrite HL in Hr. subst w'. set (y := answered x r).
  (* the connection is not Closed, so the response is queued *)
  assert (Ey : sc_client y = sc_client x /\ sc_conn y = enqueue_response (sc_conn x) r /\ sc_st y <> SClosed).
  { unfold y, answered. destruct (sc_st x); cbn; [split; [|split]; (reflexivity || discriminate)..|congruence]. }
  destruct Ey as (E1 & E2 & E3). split; [|split].
  - apply (calm_set_conn w fd x y HC HL E1 E3). rewrite E2. exact Hrb.
  - exists x, y. split; [exact HL|]. split; [exact Hg|]. cbn [set_conn w_conns].
    split; [eapply alookup_update_same; eauto|]. split; [exact E1|]. unfold wire. rewrite E1, E2.
    change (client_of (set_conn w fd y) (sc_client x)) with (client_of w (sc_client x)).
    rewrite (unsent_grow (sc_conn x) (enqueue_response (sc_conn x) r) [r]); [|reflexivity|reflexivity].
    cbn [flat_map]. rewrite app_nil_r, app_assoc. reflexivity.
  - intros fd0 x0 Hne HL0. cbn [set_conn w_conns]. rewrite alookup_update_other by congruence. split; [exact HL0|reflexivity].
Qed.

(* the executable driver: poll while the epoll descriptor signals *)
Inductive drive_res := DQuiet (w : world) (ys : list yield) | DOverflow | DFuel.
Fixpoint drive (n : nat) (w : world) (acc : list yield) : drive_res :=
  match n with
  | O => DFuel
  | S k => match poll BUF w with
           | PBlocked => DQuiet w acc
           | PYield w' ys => drive k w' (acc ++ ys)
           | Server.PErr _ => DOverflow
           end
  end.

(* Polling while the epoll descriptor signals, from a calm world: it ends, and what every poll keeps of
   the world and the yields so far holds when it does.  The measure gives the bound on the polls. *)
Lemma drive_induction (P : world -> list yield -> Prop) :
  (forall w toks acc w' ys, Inv w toks -> Calm w -> P w acc -> poll BUF w = PYield w' ys -> P w' (acc ++ ys)) ->
  forall w toks acc, Inv w toks -> Calm w -> P w acc ->
  exists n, match drive n w acc with
            | DQuiet w' ys' => ready_events w' = [] /\ Calm w' /\ (exists toks', Inv w' toks') /\ P w' ys'
            | DOverflow => True
            | DFuel => False
            end.
Proof using BUF_min BUF_u32.
  intros Step w. remember (meas w) as m eqn:Em. revert w Em.
  induction m as [m IH] using (well_founded_induction lexlt_wf). intros w -> toks acc HI HC HP.
  pose proof (poll_outcomes BUF BUF_min BUF_u32 w toks HI) as PO.
  destruct (poll BUF w) as [|w' ys|e] eqn:Pl.
  - exists 1%nat. cbn [drive]. rewrite Pl. eauto 6.
  - destruct (canonical_poll_progress w toks w' ys HI HC Pl) as (HC' & HI' & Hlt).
    destruct (IH _ Hlt w' eq_refl _ (acc ++ ys) HI' HC' (Step w toks acc w' ys HI HC HP Pl)) as [n Hn].
    exists (S n). cbn [drive]. rewrite Pl. exact Hn.
  - exists 1%nat. cbn [drive]. rewrite Pl. exact Logic.I.
Qed.

(* polling to quiescence: terminates and conserves every wire; by blocked_means_done nothing is then left unsent *)
Theorem drive_delivers : forall w toks acc, Inv w toks -> Calm w ->
  exists n, match drive n w acc with
            | DQuiet w' ys' => ready_events w' = [] /\ Calm w' /\ (exists toks', Inv w' toks') /\ conserved w w' /\
                               exists ys, ys' = acc ++ ys
            | DOverflow => True
            | DFuel => False
            end.
Proof using BUF_min BUF_u32.
  intros w toks acc HI HC.
  apply (drive_induction (fun w' ys' => conserved w w' /\ exists ys, ys' = acc ++ ys)) with (toks := toks); auto.
  - intros w0 toks0 acc0 w' ys I0 C0 [Cs (ys0 & ->)] Pl. split.
    + eapply conserved_trans; [exact Cs|]. apply (canonical_poll_live w0 toks0 w' ys I0 C0 Pl).
    + exists (ys0 ++ ys). symmetry. apply app_assoc.
  - split; [apply conserved_refl|]. exists []. rewrite app_nil_r. reflexivity.
Qed.

Theorem drive_terminates : forall w toks acc, Inv w toks -> Calm w ->
  exists n, match drive n w acc with
            | DQuiet w' ys' => ready_events w' = [] /\ Calm w' /\ (exists toks', Inv w' toks') /\ exists ys, ys' = acc ++ ys
            | DOverflow => True
            | DFuel => False
            end.
Proof using BUF_min BUF_u32.
  intros w toks acc HI HC. destruct (drive_delivers w toks acc HI HC) as [n Hn]. exists n.
  destruct (drive n w acc); [tauto|exact Hn|exact Hn].
Qed.

(* polling while ready brings to the client of a connection all that is on its wire, and after that only
   replies the server generates itself; nothing stays unsent *)
Lemma drive_delivers_to w toks acc fd x : Inv w toks -> Calm w -> alookup fd (w_conns w) = Some x ->
  exists n, match drive n w acc with
            | DQuiet w2 _ => ready_events w2 = [] /\
                exists x2 more, alookup fd (w_conns w2) = Some x2 /\ sc_client x2 = sc_client x /\
                  unsent (sc_conn x2) = [] /\ Forall server_generated more /\
                  k_rx (client_of w2 (sc_client x)) = wire w x ++ flat_map serialize more
            | DOverflow => True
            | DFuel => False
            end.
Proof using BUF_min BUF_u32.
  intros HI HC HL. destruct (drive_delivers w toks acc HI HC) as [n Hn]. exists n.
  destruct (drive n w acc) as [w2 ys2| |]; auto.
  destruct Hn as (Hq & HC2 & (toks2 & HI2) & Cs & _). split; [exact Hq|].
  destruct (Cs fd x HL) as (x2 & more & L2 & Hc2 & Hw2 & Fm).
  destruct (blocked_means_done w2 toks2 HI2 HC2 Hq) as (_ & Hdone). destruct (Hdone fd x2 L2) as (_ & Hu2 & _).
  exists x2, more. repeat (split; [assumption|]). rewrite <- Hw2. unfold wire. rewrite Hu2, app_nil_r, Hc2. reflexivity.
Qed.

(* C08 end to end: the application answers a request it holds; polling while the epoll descriptor
   signals terminates, and at that point the client of that connection has been sent -- in its
   receive queue, after everything sent before -- the whole response, followed only by responses
   the server generated for that client's later input; nothing is left unsent anywhere *)
Theorem response_delivered w t1 t2 fd g r w1 :
  Inv w (t1 ++ (fd, g) :: t2) -> Calm w -> respond w fd r = inl w1 ->
  exists n, match drive n w1 [] with
            | DQuiet w2 _ =>
                ready_events w2 = [] /\
                exists x x2 gen, alookup fd (w_conns w) = Some x /\ sc_gid x = g /\
                  alookup fd (w_conns w2) = Some x2 /\ sc_client x2 = sc_client x /\ unsent (sc_conn x2) = [] /\
                  k_rx (client_of w2 (sc_client x)) = wire w x ++ serialize r ++ flat_map serialize gen /\
                  Forall server_generated gen
            | DOverflow => True
            | DFuel => False
            end.
Proof.
  intros HI HC Hr.
  destruct (respond_conserves w t1 t2 fd g r w1 HI HC Hr) as (HC1 & (x & x1 & HL & Hg & HL1 & Hc1 & Hw1) & _).
  destruct (respond_ok BUF BUF_min BUF_u32 w t1 t2 fd g r HI) as (w1' & x' & Hr' & HI1 & _).
  rewrite Hr in Hr'. injection Hr' as <-.
  destruct (drive_delivers_to w1 _ [] fd x1 HI1 HC1 HL1) as [n Hn]. exists n.
  destruct (drive n w1 []) as [w2 ys2| |]; auto.
  destruct Hn as (Hq & x2 & gen & HL2 & Hc2 & Hu & Fg & Hrx). split; [exact Hq|].
  exists x, x2, gen. split; [exact HL|]. split; [exact Hg|]. split; [exact HL2|]. split; [congruence|]. split; [exact Hu|].
  split; [|exact Fg]. rewrite <- Hc1, Hrx, Hw1, <- app_assoc. reflexivity.
Qed.

End Prog.

(* non-vacuity: a reachable calm world that holds a token *)
Definition wA : world :=
  Server.mkW [(0%nat, mkCl true false false (B"GET /a HTTP/1.1" ++ CRLF ++ CRLF) [] InBacklog)] [] [0%nat] [] 0 MAX_PAYLOAD_SIZE false.

Lemma wA_inv : Inv 1024 wA [].
Proof. constructor; cbn; try (intros; discriminate); try tauto; try lia. constructor. Qed.

Lemma wA_calm : Calm wA.
Proof.
  constructor; cbn [wA w_killed w_clients w_conns w_backlog alookup]; try (intros; discriminate); auto.
  - intros c cl. destruct (Nat.eqb 0 c); [|discriminate]. intros H; injection H as <-. repeat split.
  - repeat constructor. intros [].
  - intros c [<-|[]]. split; [eexists; reflexivity|]. intros; discriminate.
Qed.

Lemma BUF1024_min : (2 <= 1024)%nat. Proof. lia. Qed.
Lemma BUF1024_u32 : N.of_nat 1024 < U32_LIMIT. Proof. vm_compute. reflexivity. Qed.

(* the worlds after the first poll from wA (accept) and the second (read): the application then holds the
   token (1, 0) *)
Definition wB : world := match poll 1024 wA with PYield w _ => w | _ => wA end.
Definition wC : world :=
  match poll 1024 wA with
  | PYield wB _ => match poll 1024 wB with PYield w _ => w | _ => wA end
  | _ => wA
  end.

Lemma poll_wA : poll 1024 wA = PYield wB [].
Proof. vm_compute. reflexivity. Qed.
Lemma poll_wB : exists rq, poll 1024 wB = PYield wC [(1%nat, 0%nat, rq)].
Proof. vm_compute. eexists. reflexivity. Qed.

Lemma wB_ok : Calm wB /\ Inv 1024 wB [].
Proof.
  (* pose proof, here and below: destruct would look for the worlds in the goal and unfold the polls that define them *)
  pose proof (canonical_poll_progress 1024 BUF1024_min BUF1024_u32 wA [] wB [] wA_inv wA_calm poll_wA) as (C & I & _).
  auto.
Qed.
Lemma wC_ok : Calm wC /\ Inv 1024 wC [(1%nat, 0%nat)].
Proof.
  pose proof wB_ok as [C I]. pose proof poll_wB as [rq P].
  pose proof (canonical_poll_progress 1024 BUF1024_min BUF1024_u32 wB [] wC _ I C P) as (C' & I' & _). auto.
Qed.

Example token_world_reachable :
  exists w, Inv 1024 w ([] ++ (1%nat, 0%nat) :: []) /\ Calm w /\ exists w1, respond w 1 (response_new Http11 NoContent) = inl w1.
Proof.
  pose proof wC_ok as [C I]. exists wC. split; [exact I|]. split; [exact C|].
  pose proof (respond_ok 1024 BUF1024_min BUF1024_u32 wC [] [] 1 0 (response_new Http11 NoContent) I) as (w1 & _ & R & _).
  eauto.
Qed.

(* a write event that accepts a single byte (K3 promises no more): the client receives exactly one byte,
   the connection keeps its OUT interest and the rest stays queued *)
Example one_byte_write_example :
  match respond wC 1 (response_new Http11 NoContent) with
  | inl w1 =>
      match handle_event 1024 w1 (EvOut 1 1) with
      | inl (w2, _) =>
          length (k_rx (client_of w2 0)) = 1%nat /\
          match alookup 1%nat (w_conns w2), alookup 1%nat (w_conns w1) with
          | Some y, Some x => sc_st y = AwaitOut /\ sc_out y = true /\
                              length (unsent (sc_conn y)) = (length (unsent (sc_conn x)) - 1)%nat /\
                              (2 <= length (unsent (sc_conn x)))%nat
          | _, _ => False
          end
      | _ => False
      end
  | _ => False
  end.
Proof. vm_compute. repeat split; lia. Qed.
