(* C13 / C04 through the server, end to end, for clients that keep their connections open: the replies the
   server generates while reading a connection (100 Continue for an Expect head, 400 for a rejected
   request) are exactly those of the specification parser on the bytes read, they are queued on that
   connection whatever else the same poll handles, and polling while the epoll descriptor signals
   delivers them to that client -- without the client sending anything more. *)
From MH Require Export proofs.ServerRead_proofs proofs.CalmHistory_proofs.

Lemma NoDup_app_r {A} (a b : list A) : NoDup (a ++ b) -> NoDup b.
Proof. induction a as [|x a IH]; [auto|]. intros H. inversion H; auto. Qed.

Section SE.
Variable BUF : nat.
Hypothesis BUF_min : (2 <= BUF)%nat.
Hypothesis BUF_u32 : N.of_nat BUF < U32_LIMIT.
Notation CInv := (CInv BUF).
Notation Inv := (Inv BUF).
Notation handle_event := (handle_event BUF).
Notation handle_all := (handle_all BUF).

Lemma untouched_batch es rest w toks acc w' ys fd x :
  Inv w toks -> Calm w -> Forall (evt_live w) (es ++ rest) -> NoDup (map ev_key (es ++ rest)) ->
  ~ In (KConn fd) (map ev_key es) -> handle_all w es acc = inl (w', ys) -> alookup fd (w_conns w) = Some x ->
  (alookup fd (w_conns w') = Some x /\ client_of w' (sc_client x) = client_of w (sc_client x)) /\
  Calm w' /\ (exists toks', Inv w' toks') /\ Forall (evt_live w') rest.
Proof.
  intros HI HC Hl Hnd Hnot Hrun HL.
  refine (live_batch BUF BUF_min BUF_u32 (fun e => ev_key e <> KConn fd)
            (fun w1 _ => alookup fd (w_conns w1) = Some x /\ client_of w1 (sc_client x) = client_of w (sc_client x))
            _ es rest w toks acc w' ys HI HC Hl Hnd _ Hrun (conj HL eq_refl)).
  - intros w1 _ _ e w2 ys2 _ HC1 He Hk H [L1 C1].
    destruct (untouched_frame BUF w1 e w2 ys2 fd x HC1 H L1 Hk) as [L2 C2]. split; [exact L2|congruence].
  - apply Forall_forall. intros e Hin E. apply Hnot. rewrite <- E. apply in_map, Hin.
Qed.

(* What one poll does to the connection whose IN event is in the batch, wherever it stands in the batch: what
   server_read_exact says of the event alone holds of the world after the whole batch.  [ys2] is what the event
   itself yields; the runs before and after it are there for what else is to be said of [ys]. *)
Theorem batch_read_spec pre post w toks acc w' ys fd kk x ph :
  Inv w toks -> Calm w ->
  Forall (evt_live w) (pre ++ EvIn fd kk :: post) -> NoDup (map ev_key (pre ++ EvIn fd kk :: post)) ->
  handle_all w (pre ++ EvIn fd kk :: post) acc = inl (w', ys) ->
  alookup fd (w_conns w) = Some x -> CInv (sc_conn x) ph ->
  let cl := client_of w (sc_client x) in
  let d := firstn (read_amount kk (BUF - length (c_win (sc_conn x))) (length (k_tosrv cl))) (k_tosrv cl) in
  exists w1 ys1 w2 ys2 y,
    handle_all w pre acc = inl (w1, ys1) /\ handle_all w2 post (ys1 ++ ys2) = inl (w', ys) /\
    alookup fd (w_conns w') = Some y /\ sc_gid y = sc_gid x /\ sc_client y = sc_client x /\
    k_tosrv (client_of w' (sc_client x)) = skipn (length d) (k_tosrv cl) /\ k_rx (client_of w' (sc_client x)) = k_rx cl /\
    Calm w' /\ (exists toks', Inv w' toks') /\ read_outcome BUF fd x ph d y ys2.
Proof.
  intros HI HC Hl Hnd Hrun HL I. cbn zeta.
  assert (Hk : ~ In (KConn fd) (map ev_key pre) /\ ~ In (KConn fd) (map ev_key post)).
  { pose proof Hnd as H. rewrite map_app in H. apply NoDup_remove_2 in H. split; intros Hin; apply H, in_or_app; auto. }
  rewrite handle_all_app in Hrun. destruct (handle_all w pre acc) as [[w1 ys1]|] eqn:Hp; [|discriminate].
  destruct (untouched_batch pre _ w toks acc w1 ys1 fd x HI HC Hl Hnd (proj1 Hk) Hp HL) as ([L1 C1] & HC1 & (toks1 & HI1) & Hl1).
  rewrite map_app in Hnd. apply NoDup_app_r in Hnd.
  cbn [Server.handle_all] in Hrun. destruct (handle_event w1 (EvIn fd kk)) as [[w2 ys2]|] eqn:Hin; [|discriminate].
  destruct (live_batch BUF BUF_min BUF_u32 (fun _ => True) (fun _ _ => True) (fun _ _ _ _ _ _ _ _ _ _ _ _ => Logic.I)
              [EvIn fd kk] post w1 toks1 ys1 w2 (ys1 ++ ys2) HI1 HC1 Hl1 Hnd (Forall_cons _ Logic.I (Forall_nil _)))
    as (_ & HC2 & (toks2 & HI2) & Hl2); [cbn [Server.handle_all]; rewrite Hin; reflexivity|exact Logic.I|].
  assert (Hne : k_tosrv (client_of w1 (sc_client x)) <> []).
  { destruct (Forall_inv Hl1) as (x1 & L & _ & Ht). rewrite L1 in L. injection L as <-. exact Ht. }
  destruct (server_read_exact BUF BUF_min BUF_u32 w1 toks1 fd kk w2 ys2 x ph HI1 L1 I Hne Hin) as (_ & y & L2 & Hg & Hc & Ht & M).
  (* the read leaves what its client has received alone *)
  assert (Hrx : k_rx (client_of w2 (sc_client x)) = k_rx (client_of w1 (sc_client x))).
  { destruct (handle_conn_shape BUF w1 (EvIn fd kk) fd w2 ys2 eq_refl Hin) as (x' & y' & cl' & rs & L & _ & -> & _ & _ & Hrx).
    rewrite L1 in L. injection L as <-. destruct (calm_conns _ HC1 _ _ L1) as (_ & _ & cl & Hcl).
    rewrite (client_of_update_same _ _ _ _ cl _ Hcl). apply Hrx. discriminate. }
  inversion Hnd as [|? ? _ Hnd2]. rewrite <- (app_nil_r post) in Hl2, Hnd2.
  destruct (untouched_batch post [] w2 _ _ w' ys fd y HI2 HC2 Hl2 Hnd2 (proj2 Hk) Hrun L2) as ([L3 C3] & HC3 & HI3 & _).
  rewrite Hc in C3. rewrite C1 in *. exists w1, ys1, w2, ys2, y. rewrite C3. auto 12.
Qed.

(* C13, C04 within one poll: the replies generated by the read are queued on that connection, and nothing
   reaches its client yet, whatever else the poll handles *)
Theorem batch_read_exact pre post w toks acc w' ys fd kk x ph :
  Inv w toks -> Calm w ->
  Forall (evt_live w) (pre ++ EvIn fd kk :: post) -> NoDup (map ev_key (pre ++ EvIn fd kk :: post)) ->
  handle_all w (pre ++ EvIn fd kk :: post) acc = inl (w', ys) ->
  alookup fd (w_conns w) = Some x -> CInv (sc_conn x) ph ->
  let c := sc_conn x in
  let t := k_tosrv (client_of w (sc_client x)) in
  let d := firstn (read_amount kk (BUF - length (c_win c)) (length t)) t in
  exists y, alookup fd (w_conns w') = Some y /\ sc_client y = sc_client x /\ sc_gid y = sc_gid x /\
    k_rx (client_of w' (sc_client x)) = k_rx (client_of w (sc_client x)) /\
    Calm w' /\ (exists toks', Inv w' toks') /\
    match runT BUF (c_pmax c) ph (c_win c ++ d) [] with
    | RMore ph' carry outs =>
        CInv (sc_conn y) ph' /\ unsent (sc_conn y) = unsent c ++ flat_map serialize (conts_of outs)
    | RErr outs e =>
        CInv (sc_conn y) PLine /\
        unsent (sc_conn y) = unsent c ++ flat_map serialize (conts_of outs ++ [bad_request_response e])
    | ROutOfFuel => False
    end.
Proof.
  intros HI HC Hl Hnd Hrun HL I. cbn zeta.
  destruct (batch_read_spec pre post w toks acc w' ys fd kk x ph HI HC Hl Hnd Hrun HL I)
    as (_ & _ & _ & ys2 & y & _ & _ & L & Hg & Hc & _ & Hrx & HC' & HI' & M).
  exists y. repeat (split; [assumption|]). unfold read_outcome in M.
  destruct (runT BUF (c_pmax (sc_conn x)) ph _ []) as [ph' carry outs|outs e|]; [| |exact M];
    destruct M as (A1 & _ & A3 & _); auto.
Qed.

Lemma calm_poll w toks w' ys : Inv w toks -> Calm w -> poll BUF w = PYield w' ys ->
  Forall (evt_live w) (ready_events w) /\ NoDup (map ev_key (ready_events w)) /\
  handle_all w (ready_events w) [] = inl (w', ys).
Proof.
  intros HI HC P. split; [exact (ready_events_live BUF BUF_min BUF_u32 w toks HI HC)|].
  split; [apply (ready_events_ok BUF BUF_min BUF_u32 w toks HI)|apply (canonical_poll_live BUF BUF_min BUF_u32 w toks w' ys HI HC P)].
Qed.

Lemma ready_in w fd x : Calm w -> alookup fd (w_conns w) = Some x -> sc_out x = false ->
  k_tosrv (client_of w (sc_client x)) <> [] -> In (EvIn fd 0) (ready_events w).
Proof.
  intros HC HL Ho Hne. apply In_ready_events. right. left. exists fd, x. split; [apply alookup_some_in; exact HL|].
  unfold conn_event. rewrite (proj1 (calm_peer w fd x HC HL)), Ho.
  destruct (k_tosrv (client_of w (sc_client x))); [congruence|reflexivity].
Qed.

(* end to end: a connection awaiting input whose client has sent bytes.  Polling while the epoll descriptor
   signals terminates, and then that client has been sent -- after everything sent before -- exactly the replies
   the specification parser generates on the bytes of the first read (100 Continue for every Expect head
   completed, the 400 if the stream is rejected), followed only by further server-generated replies to the
   rest of its input; the client did not have to send anything more *)
Theorem server_replies_delivered w toks fd x ph :
  Inv w toks -> Calm w -> alookup fd (w_conns w) = Some x -> CInv (sc_conn x) ph -> sc_out x = false ->
  k_tosrv (client_of w (sc_client x)) <> [] ->
  let c := sc_conn x in
  let t := k_tosrv (client_of w (sc_client x)) in
  let d := firstn (read_amount 0 (BUF - length (c_win c)) (length t)) t in
  exists n, match drive BUF n w [] with
            | DQuiet w2 _ =>
                ready_events w2 = [] /\
                exists more, Forall server_generated more /\
                  k_rx (client_of w2 (sc_client x)) =
                  wire w x ++
                  flat_map serialize (match runT BUF (c_pmax c) ph (c_win c ++ d) [] with
                                      | RMore _ _ outs => conts_of outs
                                      | RErr outs e => conts_of outs ++ [bad_request_response e]
                                      | ROutOfFuel => []
                                      end) ++ flat_map serialize more
            | DOverflow => True
            | DFuel => False
            end.
Proof.
  intros HI HC HL I Ho Hne. cbn zeta.
  destruct (in_split _ _ (ready_in w fd x HC HL Ho Hne)) as (pre & post & Ere).
  pose proof (poll_outcomes BUF BUF_min BUF_u32 w toks HI) as PO.
  destruct (poll BUF w) as [|w1 ys1|e] eqn:P.
  - rewrite PO in Ere. destruct pre; discriminate.
  - (* the first poll reads; the polls after it deliver *)
    destruct (calm_poll w toks w1 ys1 HI HC P) as (Hl & Hnd & Hrun). rewrite Ere in Hl, Hnd, Hrun.
    destruct (batch_read_exact pre post w toks [] w1 ys1 fd 0 x ph HI HC Hl Hnd Hrun HL I)
      as (y & L1 & Hc1 & _ & Hrx1 & HC1 & (toks1 & HI1) & M).
    destruct (drive_delivers_to BUF BUF_min BUF_u32 w1 toks1 ([] ++ ys1) fd y HI1 HC1 L1) as [n Hn].
    exists (S n). cbn [drive]. rewrite P. destruct (drive BUF n w1 ([] ++ ys1)) as [w2 ys2| |]; auto.
    destruct Hn as (Hq & _ & more & _ & _ & _ & Fm & Hw). split; [exact Hq|]. exists more. split; [exact Fm|].
    rewrite <- Hc1, Hw. unfold wire. rewrite Hc1, Hrx1.
    destruct (runT BUF (c_pmax (sc_conn x)) ph _ []) as [ph' carry outs|outs e|]; [| |destruct M];
      destruct M as (_ & ->); rewrite <- !app_assoc; reflexivity.
  - exists 1%nat. cbn [drive]. rewrite P. exact Logic.I.
Qed.

End SE.

(* non-vacuity: a client connects having sent an Expect head and nothing else; polling while ready ends with the
   interim response -- and nothing else -- in its receive queue, and no request yielded *)
Definition wX : world :=
  Server.mkW [(0%nat, mkCl true false false
                 (B"PUT /x HTTP/1.1" ++ CRLF ++ B"Expect: 100-continue" ++ CRLF ++ B"Content-Length: 3" ++ CRLF ++ CRLF) [] InBacklog)]
             [] [0%nat] [] 0 MAX_PAYLOAD_SIZE false.
Example expect_head_example :
  match drive 1024 8 wX [] with
  | DQuiet w2 ys => k_rx (client_of w2 0) = serialize (response_new Http11 Continue) /\ ys = [] /\ ready_events w2 = []
  | _ => False
  end.
Proof. vm_compute. repeat split. Qed.
