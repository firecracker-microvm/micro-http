(* Header rules (C15): what is fatal, what is tolerated, which field each line touches. *)
From MH Require Export model.Headers proofs.Tokens_proofs.

(* the first token of an Accept-Encoding value that makes it fatal: one that trims to identity;q=0, or
   to *;q=0 while "identity" does not occur anywhere in the value *)
Fixpoint first_bad (whole : bytes) (pieces : list bytes) : option bytes :=
  match pieces with
  | [] => None
  | p :: r =>
    if beq (trim p) (B"identity;q=0") || (beq (trim p) (B"*;q=0") && negb (containsb (B"identity") whole))
    then Some p else first_bad whole r
  end.

Lemma encoding_check_spec whole pieces :
  encoding_check whole pieces =
  match first_bad whole pieces with
  | Some p => Err (HeaderError (InvalidValue (B"Accept-Encoding") p))
  | None => Ok tt
  end.
Proof.
  induction pieces as [|p r IH]; [reflexivity|]. cbn [encoding_check first_bad].
  destruct (beq (trim p) (B"identity;q=0")); [reflexivity|]. cbn [orb].
  destruct (beq (trim p) (B"*;q=0") && negb (containsb (B"identity") whole)); [reflexivity|exact IH].
Qed.

Theorem accept_encoding_rule v : v <> [] -> utf8_valid v = true ->
  encoding_try_from v =
  match first_bad v (split_on COMMA v) with
  | Some p => Err (HeaderError (InvalidValue (B"Accept-Encoding") p))
  | None => Ok tt
  end.
Proof.
  intros Hne U. unfold encoding_try_from. destruct v; [congruence|]. rewrite U. apply encoding_check_spec.
Qed.

Theorem accept_encoding_empty : encoding_try_from [] = Err InvalidRequest.
Proof. reflexivity. Qed.

Lemma encoding_err_not_format v e l : encoding_try_from v = Err e -> e <> HeaderError (InvalidFormat l).
Proof.
  unfold encoding_try_from. destruct v; [intros [= <-]; discriminate|].
  destruct (utf8_valid _); [|intros [= <-]; discriminate].
  rewrite encoding_check_spec. destruct (first_bad _ _); intros [= <-]. discriminate.
Qed.

(* The arms of parse_header_line: x is the class of the name, tk and tv the trimmed name and value;
   k and v only label errors. *)
Definition field_rule (h : headers) (x : option header) (tk tv k v : bytes) : res headers req_err :=
  match x with
  | Some HContentLength =>
      match parse_u32 tv with
      | Some n => Ok (set_content_length h n)
      | None => Err (HeaderError (InvalidValue k v))
      end
  | Some HContentType =>
      match parse_media tv with
      | Some _ => Ok h
      | None => Err (HeaderError (UnsupportedValue k v))
      end
  | Some HAccept =>
      match parse_media tv with
      | Some t => Ok (set_accept h t)
      | None => Err (HeaderError (UnsupportedValue k v))
      end
  | Some HTransferEncoding =>
      if beq tv (B"chunked") then Ok (set_chunked h)
      else if beq tv (B"identity") then Ok h
      else Err (HeaderError (UnsupportedValue k v))
  | Some HExpect =>
      if beq tv (B"100-continue") then Ok (set_expect h)
      else Err (HeaderError (UnsupportedValue k v))
  | Some HServer => Ok h
  | Some HAcceptEncoding => match encoding_try_from tv with Ok _ => Ok h | Err e => Err e end
  | None => Ok (insert_custom h tk tv)
  end.

Lemma parse_header_line_eq h line :
  parse_header_line h line =
  if utf8_valid line then
    match split_at COLON line with
    | None => Err (HeaderError (InvalidFormat line))
    | Some (k, v) => field_rule h (header_try_from k) (trim k) (trim v) k v
    end
  else Err (HeaderError (InvalidUtf8String line)).
Proof. reflexivity. Qed.

Lemma parse_header_line_at h k v : utf8_valid (k ++ COLON :: v) = true -> ~ In COLON k ->
  parse_header_line h (k ++ COLON :: v) = field_rule h (header_try_from k) (trim k) (trim v) k v.
Proof. intros U Hk. rewrite parse_header_line_eq, U, split_at_app by exact Hk. reflexivity. Qed.

(* no arm reports InvalidFormat, and no arm clears a flag *)
Lemma field_rule_sound h x tk tv k v :
  match field_rule h x tk tv k v with
  | Ok h' => (h_expect h = true -> h_expect h' = true) /\ (h_chunked h = true -> h_chunked h' = true)
  | Err e => forall l, e <> HeaderError (InvalidFormat l)
  end.
Proof.
  destruct x as [[]|]; cbn [field_rule].
  - destruct (parse_u32 tv); cbn; [auto|discriminate].
  - destruct (parse_media tv); [auto|discriminate].
  - destruct (beq tv (B"100-continue")); cbn; [auto|discriminate].
  - destruct (beq tv (B"chunked")); [cbn; auto|]. destruct (beq tv (B"identity")); [auto|discriminate].
  - auto.
  - destruct (parse_media tv); cbn; [auto|discriminate].
  - destruct (encoding_try_from tv) eqn:E; [auto|]. intros l. exact (encoding_err_not_format _ _ l E).
  - cbn. auto.
Qed.

Theorem invalid_utf8_fatal h line :
  utf8_valid line = false -> parse_header_line h line = Err (HeaderError (InvalidUtf8String line)).
Proof. intros U. rewrite parse_header_line_eq, U. reflexivity. Qed.

Theorem no_colon_fatal h line : utf8_valid line = true ->
  (~ In COLON line <-> parse_header_line h line = Err (HeaderError (InvalidFormat line))).
Proof.
  intros U. rewrite parse_header_line_eq, U, <- split_at_none.
  destruct (split_at COLON line) as [[k v]|]; [|tauto]. split; [discriminate|]. intros E.
  pose proof (field_rule_sound h (header_try_from k) (trim k) (trim v) k v) as S. rewrite E in S.
  destruct (S line eq_refl).
Qed.

Theorem content_length_rule h k v : utf8_valid (k ++ COLON :: v) = true -> ~ In COLON k ->
  header_try_from k = Some HContentLength ->
  parse_header_line h (k ++ COLON :: v) =
    match parse_u32 (trim v) with
    | Some n => Ok (set_content_length h n)
    | None => Err (HeaderError (InvalidValue k v))
    end.
Proof. intros U Hk Hh. rewrite parse_header_line_at, Hh by assumption. reflexivity. Qed.

(* u32::from_str: an optional '+', at least one digit, value below 2^32 *)
Lemma keep_unsigned a r : a <> 43 -> match a :: r with 43 :: r0 => r0 | _ => a :: r end = a :: r.
Proof.
  intros H. destruct a as [|p]; [reflexivity|]. do 6 (destruct p as [p|p|]; try reflexivity). congruence.
Qed.

Lemma digits_u32 ds n : ds <> [] ->
  (match ds with
   | [] => None
   | _ => match digits_value 0 ds with Some v => if v <? U32_LIMIT then Some v else None | None => None end
   end = Some n <-> digits_value 0 ds = Some n /\ n < U32_LIMIT).
Proof.
  intros Hne. destruct ds; [congruence|]. destruct (digits_value 0 _) as [v|]; [|split; [|intros []]; discriminate].
  destruct (N.ltb_spec v U32_LIMIT); split; try discriminate; [intros [= <-]; auto|tauto|intros [[= <-] ?]; lia].
Qed.

Theorem parse_u32_rule s n :
  parse_u32 s = Some n <->
  exists ds, (s = ds \/ s = 43 :: ds) /\ ds <> [] /\ hd 0 ds <> 43 /\ digits_value 0 ds = Some n /\ n < U32_LIMIT
             \/ (s = 43 :: ds /\ ds <> [] /\ digits_value 0 ds = Some n /\ n < U32_LIMIT).
Proof.
  unfold parse_u32. split.
  - destruct s as [|a r]; [discriminate|]. destruct (N.eq_dec a 43) as [->|Hne].
    + intros H. assert (Hr : r <> []) by (intros ->; discriminate). apply (digits_u32 r) in H; [|exact Hr].
      exists r. right. auto.
    + rewrite keep_unsigned by exact Hne. intros H. apply (digits_u32 (a :: r)) in H; [|discriminate].
      exists (a :: r). left. split; [auto|]. split; [discriminate|]. split; [exact Hne|exact H].
  - intros [ds [([->| ->] & Hne & Hhd & D)|(-> & Hne & D)]]; try (apply (digits_u32 ds); assumption).
    destruct ds as [|a r]; [congruence|]. rewrite keep_unsigned by exact Hhd. apply (digits_u32 (a :: r)); assumption.
Qed.

(* the tolerated faults: the request is not rejected and nothing changes *)
Definition tolerated_header (x : header) : bool :=
  match x with HContentType | HAccept | HTransferEncoding | HExpect => true | _ => false end.

Theorem unsupported_value_ignored h k v x :
  utf8_valid (k ++ COLON :: v) = true -> ~ In COLON k -> header_try_from k = Some x -> tolerated_header x = true ->
  (exists h', parse_header_line h (k ++ COLON :: v) = Ok h') \/
  (parse_header_line h (k ++ COLON :: v) = Err (HeaderError (UnsupportedValue k v)) /\
   parse_header_tolerant h (k ++ COLON :: v) = Ok h).
Proof.
  intros U Hk Hh Ht. unfold parse_header_tolerant. rewrite parse_header_line_at, Hh by assumption.
  destruct x; try discriminate; cbn [field_rule].
  - destruct (parse_media (trim v)); eauto.
  - destruct (beq (trim v) (B"100-continue")); eauto.
  - destruct (beq (trim v) (B"chunked")); eauto. destruct (beq (trim v) (B"identity")); eauto.
  - destruct (parse_media (trim v)); eauto.
Qed.

Theorem expect_rule h k v : utf8_valid (k ++ COLON :: v) = true -> ~ In COLON k ->
  header_try_from k = Some HExpect ->
  parse_header_tolerant h (k ++ COLON :: v) = Ok (if beq (trim v) (B"100-continue") then set_expect h else h).
Proof.
  intros U Hk Hh. unfold parse_header_tolerant. rewrite parse_header_line_at, Hh by assumption.
  cbn [field_rule]. destruct (beq (trim v) (B"100-continue")); reflexivity.
Qed.

Theorem transfer_encoding_rule h k v : utf8_valid (k ++ COLON :: v) = true -> ~ In COLON k ->
  header_try_from k = Some HTransferEncoding ->
  parse_header_tolerant h (k ++ COLON :: v) = Ok (if beq (trim v) (B"chunked") then set_chunked h else h).
Proof.
  intros U Hk Hh. unfold parse_header_tolerant. rewrite parse_header_line_at, Hh by assumption.
  cbn [field_rule]. destruct (beq (trim v) (B"chunked")); [reflexivity|]. destruct (beq (trim v) (B"identity")); reflexivity.
Qed.

Theorem accept_rule h k v : utf8_valid (k ++ COLON :: v) = true -> ~ In COLON k ->
  header_try_from k = Some HAccept ->
  parse_header_tolerant h (k ++ COLON :: v) =
    Ok (match parse_media (trim v) with Some t => set_accept h t | None => h end).
Proof.
  intros U Hk Hh. unfold parse_header_tolerant. rewrite parse_header_line_at, Hh by assumption.
  cbn [field_rule]. destruct (parse_media (trim v)); reflexivity.
Qed.

Theorem content_type_rule h k v : utf8_valid (k ++ COLON :: v) = true -> ~ In COLON k ->
  header_try_from k = Some HContentType -> parse_header_tolerant h (k ++ COLON :: v) = Ok h.
Proof.
  intros U Hk Hh. unfold parse_header_tolerant. rewrite parse_header_line_at, Hh by assumption.
  cbn [field_rule]. destruct (parse_media (trim v)); reflexivity.
Qed.

Theorem server_rule h k v : utf8_valid (k ++ COLON :: v) = true -> ~ In COLON k ->
  header_try_from k = Some HServer -> parse_header_tolerant h (k ++ COLON :: v) = Ok h.
Proof. intros U Hk Hh. unfold parse_header_tolerant. rewrite parse_header_line_at, Hh by assumption. reflexivity. Qed.

(* every other field is kept as a custom entry with trimmed name and value *)
Theorem custom_rule h k v : utf8_valid (k ++ COLON :: v) = true -> ~ In COLON k ->
  header_try_from k = None ->
  parse_header_line h (k ++ COLON :: v) = Ok (insert_custom h (trim k) (trim v)).
Proof. intros U Hk Hh. rewrite parse_header_line_at, Hh by assumption. reflexivity. Qed.

(* the custom map: the last occurrence wins, other names are untouched, names are case-sensitive
   because keys are compared byte for byte *)
Lemma custom_get_insert_same k v l : custom_get k (custom_insert k v l) = Some v.
Proof.
  induction l as [|[k' v'] r IH]; cbn; [rewrite beq_refl; reflexivity|].
  destruct (beq k k') eqn:E; cbn; [rewrite beq_refl; reflexivity|]. rewrite E. exact IH.
Qed.
Lemma custom_get_insert_other k k2 v l : k2 <> k -> custom_get k2 (custom_insert k v l) = custom_get k2 l.
Proof.
  intros Hne. apply beq_neq in Hne. induction l as [|[k' v'] r IH]; cbn; [rewrite Hne; reflexivity|].
  destruct (beq_spec k k') as [<-|]; cbn; [rewrite Hne; reflexivity|].
  destruct (beq k2 k'); [reflexivity|exact IH].
Qed.

Lemma tolerant_flags_sticky h line h' : parse_header_tolerant h line = Ok h' ->
  (h_expect h = true -> h_expect h' = true) /\ (h_chunked h = true -> h_chunked h' = true).
Proof.
  unfold parse_header_tolerant. rewrite parse_header_line_eq.
  destruct (utf8_valid line); [|discriminate]. destruct (split_at COLON line) as [[k v]|]; [|discriminate].
  pose proof (field_rule_sound h (header_try_from k) (trim k) (trim v) k v) as S.
  destruct (field_rule _ _ _ _ _ _) as [h1|[|[]| | | | | | | |]]; intros [= <-]; auto.
Qed.

Theorem fold_flags_sticky : forall lines h h', headers_fold h lines = Ok h' ->
  (h_expect h = true -> h_expect h' = true) /\ (h_chunked h = true -> h_chunked h' = true).
Proof.
  induction lines as [|[|x l] r IH]; intros h h'; cbn [headers_fold]; try (intros [= <-]; auto).
  destruct (parse_header_tolerant h (x :: l)) as [h1|e] eqn:P; [|discriminate].
  intros H. destruct (tolerant_flags_sticky _ _ _ P), (IH _ _ H). auto.
Qed.

(* headers_try_from is the fold of the line rule over the CRLF-separated lines, stopping at the
   first empty line, on valid UTF-8; anything else is InvalidRequest *)
Theorem block_is_lines b :
  headers_try_from b = if utf8_valid b then headers_fold headers_default (split_crlf b) else Err InvalidRequest.
Proof. reflexivity. Qed.

Lemma lower_byte_cases b : (b <= 127 /\ lower_byte b <= 127) \/ (128 <= b /\ lower_byte b = b).
Proof.
  unfold lower_byte, in_range.
  destruct (N.leb_spec 65 b), (N.leb_spec b 90); cbn [andb]; lia.
Qed.

Lemma in_range_lower lo hi b : 128 <= lo -> in_range lo hi (lower_byte b) = in_range lo hi b.
Proof.
  intros H. destruct (lower_byte_cases b) as [[A1 A2]|[A1 ->]]; [|reflexivity].
  unfold in_range. rewrite !(proj2 (N.leb_gt lo _)) by lia. reflexivity.
Qed.

(* lower-casing touches ASCII bytes only, so the UTF-8 structure is unchanged *)
Lemma utf8_valid_lower l : utf8_valid (ascii_lower l) = utf8_valid l.
Proof.
  unfold ascii_lower. induction l as [l IH] using (induction_ltof1 _ (@length N)). unfold ltof in IH.
  destruct l as [|b0 r0]; [reflexivity|]. cbn [map utf8_valid].
  destruct (lower_byte_cases b0) as [[A1 A2]|[A1 ->]].
  - rewrite !(proj2 (N.leb_le _ 127)) by assumption. apply IH. cbn. lia.
  - rewrite (proj2 (N.leb_gt b0 127)) by lia.
    destruct (in_range 194 223 b0).
    { destruct r0 as [|b1 r1]; [reflexivity|]. cbn [map]. unfold is_cont.
      rewrite in_range_lower, IH by (cbn; lia). reflexivity. }
    destruct (in_range 224 239 b0).
    { destruct r0 as [|b1 [|b2 r2]]; try reflexivity. cbn [map]. unfold is_cont.
      rewrite !in_range_lower, IH by (cbn; lia). reflexivity. }
    destruct (in_range 240 244 b0); [|reflexivity].
    destruct r0 as [|b1 [|b2 [|b3 r3]]]; try reflexivity. cbn [map]. unfold is_cont.
    rewrite !in_range_lower, IH by (cbn; lia). reflexivity.
Qed.

(* two names that differ only in ASCII letter case are classified identically *)
Theorem name_case_insensitive k1 k2 : ascii_lower k1 = ascii_lower k2 -> header_try_from k1 = header_try_from k2.
Proof.
  intros H. unfold header_try_from. rewrite <- (utf8_valid_lower k1), <- (utf8_valid_lower k2), H. reflexivity.
Qed.

(* the seven recognised names, in their canonical spelling *)
Theorem recognised_names x : header_try_from (raw_header x) = Some x.
Proof. destruct x; vm_compute; reflexivity. Qed.
