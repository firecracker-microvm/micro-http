(* The one-shot parser against the connection parser (C14): whenever Request::try_from accepts
   a slice, the connection fed the same bytes (within the line and payload limits) delivers as
   its first request exactly the same request. *)
From MH Require Export proofs.Grammar_conv proofs.Total_proofs.

(* the inverse of str::split("\r\n") *)
Fixpoint join_crlf (ls : list bytes) : bytes :=
  match ls with
  | [] => []
  | [x] => x
  | x :: r => x ++ CRLF ++ join_crlf r
  end.

Lemma with_crlf_join ls : ls <> [] -> Grammar_proofs.with_crlf ls = join_crlf ls ++ CRLF.
Proof.
  induction ls as [|x [|y r] IH]; [congruence| |]; intros _.
  - cbn. rewrite app_nil_r. reflexivity.
  - change (Grammar_proofs.with_crlf (x :: y :: r)) with ((x ++ CRLF) ++ Grammar_proofs.with_crlf (y :: r)).
    rewrite IH by discriminate. cbn [join_crlf]. rewrite <- !app_assoc. reflexivity.
Qed.

Lemma split_aux_cons2 cur a b t :
  split_crlf_aux cur (a :: b :: t) =
  if (a =? CR) && (b =? LF) then rev cur :: split_crlf_aux [] t else split_crlf_aux (a :: cur) (b :: t).
Proof. reflexivity. Qed.
Lemma split_aux_one cur a : split_crlf_aux cur [a] = [rev (a :: cur)].
Proof. reflexivity. Qed.
Lemma split_aux_nil cur : split_crlf_aux cur [] = [rev cur].
Proof. reflexivity. Qed.

Lemma crlf_eqb a b : (a =? CR) && (b =? LF) = true -> a = CR /\ b = LF.
Proof. intros E. apply andb_true_iff in E. destruct E as [E1 E2]. apply N.eqb_eq in E1, E2. auto. Qed.

Lemma find_crlf_has x y : find_crlf (x ++ CR :: LF :: y) <> None.
Proof.
  induction x as [|c x IH]; [discriminate|].
  cbn [app]. rewrite find_crlf_cons. destruct (starts_crlf _); [discriminate|].
  destruct (find_crlf _); [discriminate|contradiction].
Qed.

(* the two equations of split: a string without CRLF is one piece; otherwise the piece before the
   first CRLF is cut off.  The accumulator is the part of the piece already passed, reversed. *)
Lemma split_aux_nocrlf : forall l cur, find_crlf (rev cur ++ l) = None -> split_crlf_aux cur l = [rev cur ++ l].
Proof.
  induction l as [|a t IH]; intros cur H; [rewrite split_aux_nil, app_nil_r; reflexivity|].
  destruct t as [|b t']; [exact (split_aux_one cur a)|]. rewrite split_aux_cons2.
  destruct ((a =? CR) && (b =? LF)) eqn:E.
  - apply crlf_eqb in E. destruct E as [-> ->]. contradiction (find_crlf_has _ _ H).
  - rewrite IH; cbn [rev]; rewrite <- app_assoc; [reflexivity|exact H].
Qed.

Lemma split_aux_crlf : forall l cur rest, find_crlf (rev cur ++ l ++ [CR]) = None ->
  split_crlf_aux cur (l ++ CRLF ++ rest) = (rev cur ++ l) :: split_crlf_aux [] rest.
Proof.
  induction l as [|a l' IH]; intros cur rest H.
  - cbn [app CRLF]. rewrite split_aux_cons2, !N.eqb_refl, app_nil_r. reflexivity.
  - assert (Hstep : split_crlf_aux cur ((a :: l') ++ CRLF ++ rest) = split_crlf_aux (a :: cur) (l' ++ CRLF ++ rest)).
    { destruct l' as [|b l'']; cbn [app CRLF]; rewrite split_aux_cons2.
      - change (CR =? LF) with false. rewrite andb_false_r. reflexivity.
      - destruct ((a =? CR) && (b =? LF)) eqn:E; [|reflexivity].
        apply crlf_eqb in E. destruct E as [-> ->]. contradiction (find_crlf_has _ _ H). }
    rewrite Hstep, IH; cbn [rev]; rewrite <- app_assoc; [reflexivity|exact H].
Qed.

Lemma split_crlf_spec l :
  split_crlf l <> [] /\ join_crlf (split_crlf l) = l /\ Forall (fun x => find_crlf x = None) (split_crlf l).
Proof.
  induction l as [l IH] using (induction_ltof1 _ (@length N)). unfold ltof in IH. unfold split_crlf in *.
  destruct (find_crlf l) as [i|] eqn:F.
  - destruct (find_crlf_cut _ _ F) as (x & rest & -> & _ & Hx). rewrite (split_aux_crlf x [] rest Hx).
    destruct (IH rest) as (Hne & Hj & Hf); [rewrite !app_length; cbn; lia|].
    rewrite find_crlf_snoc_cr in Hx. split; [discriminate|]. split; [|constructor; assumption].
    destruct (split_crlf_aux [] rest); [congruence|]. cbn [join_crlf rev app] in *. rewrite Hj. reflexivity.
  - rewrite (split_aux_nocrlf l [] F). repeat constructor. discriminate. exact F.
Qed.

Lemma split_join : forall hs, hs <> [] -> Forall (fun l => find_crlf (l ++ [CR]) = None) hs ->
  split_crlf (join_crlf hs) = hs.
Proof.
  induction hs as [|x [|y r] IH]; intros Hne H; [congruence| |]; inversion H as [|? ? Hx Hr]; subst;
    unfold split_crlf in *; cbn [join_crlf].
  - rewrite find_crlf_snoc_cr in Hx. apply (split_aux_nocrlf x [] Hx).
  - rewrite (split_aux_crlf x [] _ Hx). cbn [rev app]. f_equal. apply IH; [discriminate|exact Hr].
Qed.

(* cc: the CRLFCRLF that Request::try_from searches for, i.e. the blank line after the header block *)
Lemma cc_two w : prefixb CRLFCRLF w = starts_crlf w && starts_crlf (skipn 2 w).
Proof.
  unfold starts_crlf, CRLFCRLF, CRLF. destruct w as [|a [|b [|c [|d t]]]]; cbn [prefixb skipn];
    rewrite ?andb_false_r; try reflexivity. rewrite !andb_true_r. rewrite andb_assoc. reflexivity.
Qed.

(* the search passes a non-empty CRLF-free piece x between two CRLFs: a CRLFCRLF at k needs a CRLF
   at k + 2, which for k = 0 is the start of x and from k = 2 on lies in x, and at k = 1 stands the LF *)
Lemma skip_piece x rest i : x <> [] -> find_crlf x = None ->
  find CRLFCRLF ((CRLF ++ x) ++ CRLF ++ rest) = Some (length (CRLF ++ x) + i)%nat <->
  find CRLFCRLF (CRLF ++ rest) = Some i.
Proof.
  intros Hne Hx. rewrite <- find_crlf_snoc_cr in Hx. pose proof (find_none_before _ _ _ (find_crlf_at_end x Hx rest)) as Hreg.
  apply find_skip. intros k Hk. cbn [length CRLF app] in Hk. rewrite cc_two, <- app_assoc. unfold starts_crlf.
  destruct k as [|[|k]].
  - change (skipn 2 (skipn 0 (CRLF ++ x ++ CRLF ++ rest))) with (skipn 0 (x ++ CRLF ++ rest)).
    rewrite (Hreg 0%nat), andb_false_r by (destruct x; [congruence|cbn; lia]). reflexivity.
  - reflexivity.
  - change (skipn (S (S k)) (CRLF ++ x ++ CRLF ++ rest)) with (skipn k (x ++ CRLF ++ rest)).
    rewrite (Hreg k) by lia. reflexivity.
Qed.

(* the blank line is the first CRLFCRLF exactly when no line before it is empty *)
Lemma first_cc hs after : Forall (fun l => find_crlf l = None) hs ->
  find CRLFCRLF (CRLF ++ Grammar_proofs.with_crlf hs ++ CRLF ++ after) = Some (length (Grammar_proofs.with_crlf hs)) <->
  ~ In [] hs.
Proof.
  induction hs as [|x r IH]; intros H; [split; [intros _ []|reflexivity]|]. inversion H as [|? ? Hx Hr]; subst.
  change (Grammar_proofs.with_crlf (x :: r)) with ((x ++ CRLF) ++ Grammar_proofs.with_crlf r).
  destruct x as [|c x'].
  - split; [discriminate|intros Hn; contradiction Hn; left; reflexivity].
  - set (x := c :: x') in *.
    replace (length ((x ++ CRLF) ++ Grammar_proofs.with_crlf r))
      with (length (CRLF ++ x) + length (Grammar_proofs.with_crlf r))%nat by (rewrite !app_length; cbn [length CRLF]; lia).
    rewrite <- !app_assoc, (app_assoc CRLF x), (skip_piece x _ _ ltac:(discriminate) Hx), (IH Hr).
    split; intros Hn Hin; apply Hn; [destruct Hin as [E|Hin]; [discriminate E|exact Hin]|right; exact Hin].
Qed.

Lemma first_cc_join hs after : hs <> [] -> Forall (fun l => find_crlf l = None) hs ->
  find CRLFCRLF (CRLF ++ join_crlf hs ++ CRLFCRLF ++ after) = Some (length (join_crlf hs) + 2)%nat <-> ~ In [] hs.
Proof.
  intros Hne H. rewrite <- (first_cc hs after H), with_crlf_join, app_length, <- app_assoc by exact Hne. reflexivity.
Qed.

Lemma cc_position : forall hs body, hs <> [] ->
  Forall (fun l => l <> [] /\ find_crlf (l ++ [CR]) = None) hs ->
  find CRLFCRLF (CRLF ++ join_crlf hs ++ CRLFCRLF ++ body) = Some (length (join_crlf hs) + 2)%nat.
Proof.
  intros hs body Hne H. rewrite Forall_forall in H. apply first_cc_join; [exact Hne| |].
  - apply Forall_forall. intros l Hl. rewrite <- find_crlf_snoc_cr. apply (H l Hl).
  - intros Hin. destruct (H [] Hin) as [E _]. congruence.
Qed.

Section OneShot.
Variable BUF : nat.
Hypothesis BUF_min : (2 <= BUF)%nat.
Variable L : N.

(* the request line and the header block exactly as Request::try_from cuts them *)
Definition oneshot_parts (bs : bytes) : option (bytes * bytes) :=
  match find_crlf bs with
  | None => None
  | Some rle =>
    match find CRLFCRLF (skipn rle bs) with
    | None => None
    | Some he => Some (firstn rle bs, firstn (he - 2) (skipn (rle + 2) bs))
    end
  end.

Definition within_line_limit (bs : bytes) : Prop :=
  forall rlb block, oneshot_parts bs = Some (rlb, block) ->
    (length rlb + 2 <= BUF)%nat /\ Forall (fun l => (length l + 2 <= BUF)%nat) (split_crlf block).

Lemma headers_fold_no_empty : forall ls h, ~ In [] ls -> headers_fold h ls = fold_lines h ls.
Proof.
  induction ls as [|l r IH]; intros h Hn; [reflexivity|]. cbn [headers_fold fold_lines].
  destruct l as [|x l']; [exfalso; apply Hn; left; reflexivity|].
  destruct (parse_header_tolerant h (x :: l')); [|reflexivity]. apply IH. intros Hin. apply Hn. right. exact Hin.
Qed.

Theorem oneshot_implies_conn bs rl h body :
  request_try_from bs None = OOk rl h body -> within_line_limit bs -> h_content_length h <= L ->
  first_req (outs_of (parse_stream BUF L bs)) = Some (rl, h, body).
Proof.
  intros Hone Hlim HL.
  destruct (find_crlf bs) as [rle|] eqn:F; [|rewrite (try_from_no_line bs F) in Hone; discriminate].
  destruct (find_crlf_cut _ _ F) as (rlb & hb & -> & <- & Hfree).
  rewrite (try_from_line _ _ F) in Hone.
  destruct (length rlb <? reqline_min_len)%nat; [discriminate|].
  destruct (parse_reqline rlb) as [rl0|e] eqn:Prl; [|discriminate].
  destruct (find CRLFCRLF (CRLF ++ hb)) as [he|] eqn:F2;
    [|unfold try_from_headers in Hone; rewrite F2 in Hone; discriminate].
  destruct (Hlim rlb (firstn (he - 2) hb)) as [Hl1 Hl2].
  { unfold oneshot_parts. rewrite F, skipn_app_exact, F2, firstn_app_exact, skipn_app_plus. reflexivity. }
  assert (Hok : line_ok BUF rlb) by (split; assumption).
  apply (first_delivery_iff BUF BUF_min L).
  destruct (cc_after_crlf _ _ F2) as [[-> (rest & ->)]|(block & after & -> & ->)].
  - (* no header block *)
    injection Hone as <- <- <-. exists rlb, rl0, [], headers_default, [], rest.
    repeat split; auto.
  - rewrite (try_from_headers_block _ _ _ F2) in Hone. unfold try_from_block, headers_try_from in Hone.
    rewrite Nat.add_sub, firstn_app_exact in Hl2.
    (* the pieces of the block: none is empty, since the CRLFCRLF found is the first one *)
    destruct (split_crlf_spec block) as (Sne & Sjoin & Sfree).
    assert (Snoempty : ~ In [] (split_crlf block))
      by (apply (first_cc_join _ after Sne Sfree); rewrite Sjoin; exact F2).
    destruct (utf8_valid block); [|discriminate]. rewrite (headers_fold_no_empty _ _ Snoempty) in Hone.
    destruct (fold_lines headers_default (split_crlf block)) as [h0|e] eqn:Hfold; [|discriminate].
    assert (Hall : Forall (fun l => l <> [] /\ line_ok BUF l) (split_crlf block)).
    { rewrite Forall_forall in *. intros l Hl. split; [intros ->; exact (Snoempty Hl)|].
      split; [rewrite find_crlf_snoc_cr; apply Sfree; exact Hl|apply Hl2; exact Hl]. }
    replace (block ++ CRLFCRLF ++ after) with (Grammar_proofs.with_crlf (split_crlf block) ++ CRLF ++ after)
      by (rewrite with_crlf_join, Sjoin, <- app_assoc by exact Sne; reflexivity).
    unfold delivered_body.
    destruct (h_content_length h0 =? 0) eqn:Z.
    + (* no body: what follows the blank line is left in the stream *)
      injection Hone as <- <- <-.
      exists rlb, rl0, (split_crlf block), h0, [], after. rewrite Z. apply N.eqb_eq in Z. repeat split; auto.
    + destruct (method_eqb (rl_method rl0) Get); [discriminate|].
      destruct (lenN after =? h_content_length h0) eqn:Eb; [|discriminate]. apply N.eqb_eq in Eb.
      injection Hone as <- <- <-.
      exists rlb, rl0, (split_crlf block), h0, after, []. rewrite Z, app_nil_r. repeat split; auto.
Qed.

End OneShot.
