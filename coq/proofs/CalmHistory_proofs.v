(* Every world a well-behaved history reaches is calm: starting from the empty server, any
   sequence of client connects (fresh clients), sends, reads, polls (truthful batches, any order),
   responses for held tokens and flushes keeps the world calm and the invariant true -- so the C08
   progress and delivery theorems apply at every point of every such history. *)
From MH Require Export proofs.Flush_proofs.

Section CH.
Variable BUF : nat.
Hypothesis BUF_min : (2 <= BUF)%nat.
Hypothesis BUF_u32 : N.of_nat BUF < U32_LIMIT.
Notation Inv := (Inv BUF).

Definition connect_world (w : world) (c : nat) : world :=
  Server.mkW (w_clients w ++ [(c, mkCl true false false [] [] InBacklog)]) (w_conns w) (w_backlog w ++ [c])
             (w_tokens w) (w_nextg w) (w_limit w) (w_killed w).

Inductive calm_step : world * list tok -> world * list tok -> Prop :=
| CPoll w toks es w' ys :
    Forall (evt_live w) es -> NoDup (map ev_key es) -> poll_with BUF w es = PYield w' ys ->
    calm_step (w, toks) (w', ytoks ys ++ toks)
| CRespond w t1 t2 fd g r w' :
    respond w fd r = inl w' -> calm_step (w, t1 ++ (fd, g) :: t2) (w', t1 ++ t2)
| CFlush w toks : calm_step (w, toks) (flush w, toks)
| CConnect w toks c : alookup c (w_clients w) = None -> calm_step (w, toks) (connect_world w c, toks)
| CSend w toks c cl bs : alookup c (w_clients w) = Some cl ->
    calm_step (w, toks) (set_client w c (cl_set_tosrv cl (k_tosrv cl ++ bs)), toks)
| CRead w toks c cl : alookup c (w_clients w) = Some cl ->
    calm_step (w, toks) (set_client w c (mkCl (k_open cl) (k_shut_wr cl) (k_shut_rd cl) (k_tosrv cl) [] (k_place cl)), toks).

Inductive calm_reach : world * list tok -> Prop :=
| CR0 : calm_reach (world0, [])
| CRS s s' : calm_reach s -> calm_step s s' -> calm_reach s'.

Lemma alookup_app_fresh {A} c (v : A) l c0 :
  alookup c l = None ->
  alookup c0 (l ++ [(c, v)]) = match alookup c0 l with Some x => Some x | None => if Nat.eqb c c0 then Some v else None end.
Proof. intros _. apply alookup_app_end. Qed.

Theorem calm_invariant s : calm_reach s -> Calm (fst s) /\ Inv (fst s) (snd s).
Proof.
  induction 1 as [|s s' Hr [HC HI] Hstep].
  - split; [apply Calm_world0|apply Inv_world0; assumption].
  - inversion Hstep as [w toks es w' ys Hl Hnd Hp|w t1 t2 fd g r w' Hr'|w toks|w toks c Hf|w toks c cl bs Hcl|w toks c cl Hcl];
      subst; cbn [fst snd] in *.
    + destruct (poll_progress BUF BUF_min BUF_u32 w toks es w' ys HI HC Hl Hnd Hp) as (A1 & A2 & _). auto.
    + destruct (respond_conserves BUF w t1 t2 fd g r w' HI HC Hr') as (A1 & _).
      destruct (respond_ok BUF BUF_min BUF_u32 w t1 t2 fd g r HI) as (w1 & x & Hr1 & I1 & _).
      rewrite Hr' in Hr1. injection Hr1 as <-. auto.
    + destruct (flush_delivers_all BUF BUF_min BUF_u32 w toks HI HC) as (A1 & A2 & _). auto.
    + split; [|refine (Inv_env BUF w toks _ _ _ HI); reflexivity].
      (* the new client has a calm record, is not waiting yet and is not connected *)
      assert (Hnb : ~ In c (w_backlog w)) by (intros Hin; destruct (calm_backlog _ HC c Hin) as ((cl & E) & _); congruence).
      apply (calm_kernel w _ HC); cbn [connect_world w_killed w_clients w_conns w_backlog]; auto.
      * intros c0 cl0 H. rewrite alookup_app_end in H. destruct (alookup c0 (w_clients w)) eqn:E; [injection H as <-; exact (calm_clients _ HC _ _ E)|].
        destruct (Nat.eqb c c0); [|discriminate]. injection H as <-. repeat split.
      * intros c0 cl0 H. rewrite alookup_app_end, H. eauto.
      * apply NoDup_app_end; [exact (calm_backlog_nodup _ HC)|exact Hnb].
      * intros c0 Hin. apply in_app_or in Hin. destruct Hin as [Hin|[<-|[]]]; [auto|right]. split.
        -- eexists. rewrite alookup_app_end, Hf, Nat.eqb_refl. reflexivity.
        -- intros fd x H E. destruct (calm_conns _ HC _ _ H) as (_ & _ & cl & A3). congruence.
    + split; [|refine (Inv_env BUF w toks _ _ _ HI); reflexivity]. apply calm_set_client; [exact HC|exact (calm_clients _ HC _ _ Hcl)].
    + split; [|refine (Inv_env BUF w toks _ _ _ HI); reflexivity]. apply calm_set_client; [exact HC|exact (calm_clients _ HC _ _ Hcl)].
Qed.

End CH.
