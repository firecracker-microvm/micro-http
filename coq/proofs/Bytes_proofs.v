(* The byte-string library: [find] specified once (find_split, find_found, find_none_before, find_app_some,
   find_skip), of which the facts about find_crlf in the later files are instances; [split_at], with [position]
   as the length of what it cuts off; str::from_utf8 on a concatenation. *)
From MH Require Export lib.Str.
From Coq Require Export Lia.

Lemma beq_eq a b : beq a b = true <-> a = b.
Proof.
  revert b; induction a as [|x a IH]; intros [|y b]; cbn; split; intros H; try congruence.
  - apply andb_true_iff in H. destruct H as [H1 H2]. apply N.eqb_eq in H1. apply IH in H2. congruence.
  - inversion H; subst. rewrite N.eqb_refl. cbn. apply IH. reflexivity.
Qed.

Lemma beq_refl a : beq a a = true.
Proof. apply beq_eq. reflexivity. Qed.

Lemma beq_neq a b : beq a b = false <-> a <> b.
Proof.
  split; intros H.
  - intros E. apply beq_eq in E. congruence.
  - destruct (beq a b) eqn:E; auto. apply beq_eq in E. contradiction.
Qed.

Lemma beq_spec a b : reflect (a = b) (beq a b).
Proof. apply iff_reflect. symmetry. apply beq_eq. Qed.

Lemma prefixb_spec p l : prefixb p l = true <-> exists r, l = p ++ r.
Proof.
  revert l; induction p as [|x p IH]; intros l; cbn.
  - split; eauto.
  - destruct l as [|y l].
    + split; [discriminate|]. intros [r H]. discriminate.
    + split.
      * intros H. apply andb_true_iff in H. destruct H as [H1 H2]. apply N.eqb_eq in H1.
        apply IH in H2. destruct H2 as [r ->]. exists r. congruence.
      * intros [r H]. inversion H; subst. rewrite N.eqb_refl. cbn. apply IH. eauto.
Qed.

Lemma prefixb_app p l b : (length p <= length l)%nat -> prefixb p (l ++ b) = prefixb p l.
Proof.
  revert l; induction p as [|x p IH]; intros [|y l]; cbn; intros H; try lia.
  rewrite IH by lia. reflexivity.
Qed.

Lemma split_at_none c w : split_at c w = None <-> ~ In c w.
Proof.
  induction w as [|a t IH]; cbn; [tauto|].
  destruct (N.eqb_spec a c) as [->|E].
  - split; [discriminate|]. intros H. exfalso. apply H. auto.
  - destruct (split_at c t) as [[x y]|].
    + split; [discriminate|]. intros H. exfalso.
      assert (~ In c t) by (intros Hin; apply H; right; exact Hin). apply IH in H0. discriminate.
    + split; auto. intros _ [A|A]; [congruence|]. apply IH in A; auto.
Qed.

Lemma split_at_app c x y : ~ In c x -> split_at c (x ++ c :: y) = Some (x, y).
Proof.
  induction x as [|a x IH]; intros H; cbn.
  - rewrite N.eqb_refl. reflexivity.
  - destruct (N.eqb_spec a c) as [E|E]; [exfalso; apply H; left; exact E|].
    rewrite IH; [reflexivity|]. intros A. apply H. right. exact A.
Qed.

Lemma split_at_some c w x y : split_at c w = Some (x, y) <-> (w = x ++ c :: y /\ ~ In c x).
Proof.
  split; [|intros [-> H]; apply split_at_app; exact H].
  revert x y; induction w as [|a t IH]; intros x y; cbn; [discriminate|].
  destruct (N.eqb_spec a c) as [->|E].
  - intros [= <- <-]. cbn. auto.
  - destruct (split_at c t) as [[x1 y1]|]; [|discriminate].
    intros [= <- <-]. destruct (IH x1 y1 eq_refl) as [-> Hn].
    split; [reflexivity|]. intros [A|A]; [congruence|auto].
Qed.

Lemma position_split_at c w : position c w = option_map (fun p => length (fst p)) (split_at c w).
Proof.
  induction w as [|a t IH]; cbn; [reflexivity|]. destruct (N.eqb a c); [reflexivity|].
  rewrite IH. destruct (split_at c t) as [[x y]|]; reflexivity.
Qed.

Lemma skipn_app_exact {A} (a b : list A) : skipn (length a) (a ++ b) = b.
Proof. induction a; cbn; auto. Qed.

Lemma firstn_app_exact {A} (a b : list A) : firstn (length a) (a ++ b) = a.
Proof. induction a; cbn; congruence. Qed.

Lemma skipn_app_plus {A} (a b : list A) k : skipn (length a + k) (a ++ b) = skipn k b.
Proof. induction a; cbn; auto. Qed.

Lemma lenN_nil l : lenN l = 0 -> l = [].
Proof. destruct l; [reflexivity|discriminate]. Qed.

Lemma firstn_lenN a b : firstn (N.to_nat (lenN a)) (a ++ b) = a.
Proof. unfold lenN. rewrite Nat2N.id. apply firstn_app_exact. Qed.

Lemma skipn_lenN a b : skipn (N.to_nat (lenN a)) (a ++ b) = b.
Proof. unfold lenN. rewrite Nat2N.id. apply skipn_app_exact. Qed.

(* an occurrence found by [find] splits the string around it *)
Lemma find_split p : forall w i, find p w = Some i ->
  exists a b, w = a ++ p ++ b /\ length a = i.
Proof.
  induction w as [|x t IH]; intros i; cbn [find]; [discriminate|].
  destruct (prefixb p (x :: t)) eqn:P.
  - intros [= <-]. apply prefixb_spec in P. destruct P as [b ->]. exists [], b. auto.
  - destruct (find p t) as [j|]; [|discriminate]. intros [= <-].
    destruct (IH j eq_refl) as (a & b & -> & <-). exists (x :: a), b. auto.
Qed.

Lemma find_found p w i : find p w = Some i -> (i + length p <= length w)%nat.
Proof. intros H. destruct (find_split _ _ _ H) as (a & b & -> & <-). rewrite !app_length. lia. Qed.

Lemma find_none_before p : forall w i, find p w = Some i -> forall k, (k < i)%nat -> prefixb p (skipn k w) = false.
Proof.
  induction w as [|a t IH]; intros i H k Hk; [discriminate|].
  cbn [find] in H. destruct (prefixb p (a :: t)) eqn:P.
  - inversion H; subst. lia.
  - destruct (find p t) as [j|] eqn:F; [|discriminate]. cbn in H. inversion H; subst.
    destruct k as [|k]; [exact P|]. cbn [skipn]. apply (IH j eq_refl). lia.
Qed.

Lemma find_app_some p a b i : find p a = Some i -> find p (a ++ b) = Some i.
Proof.
  revert i; induction a as [|x t IH]; intros i H; [discriminate|].
  pose proof (find_found _ _ _ H) as Hb. cbn [app find] in *.
  rewrite app_comm_cons, prefixb_app by lia.
  destruct (prefixb p (x :: t)); [exact H|].
  destruct (find p t) as [j|]; [|discriminate]. rewrite (IH j eq_refl). exact H.
Qed.

(* a prefix in which p does not occur only shifts the position *)
Lemma find_skip p : forall a w, (forall k, (k < length a)%nat -> prefixb p (skipn k (a ++ w)) = false) ->
  forall i, find p (a ++ w) = Some (length a + i)%nat <-> find p w = Some i.
Proof.
  induction a as [|c a IH]; intros w H i; [reflexivity|].
  pose proof (H 0%nat ltac:(cbn; lia)) as H0. cbn [skipn app] in H0. cbn [app find length]. rewrite H0.
  rewrite <- (IH w) by (intros k Hk; apply (H (S k)); cbn; lia).
  destruct (find p (a ++ w)); cbn; [split; intros [= ->]; reflexivity|split; discriminate].
Qed.

(* str::from_utf8 accepts a ++ b iff it accepts b, once it accepts a *)
Lemma utf8_valid_concat : forall a b, utf8_valid a = true -> utf8_valid (a ++ b) = utf8_valid b.
Proof.
  intros a. induction a as [a IH] using (induction_ltof1 _ (@length N)). unfold ltof in IH.
  intros b Ha. destruct a as [|b0 r0]; [reflexivity|]. cbn [app]. cbn [utf8_valid] in Ha |- *.
  destruct (b0 <=? 127); [apply IH; [cbn; lia|exact Ha]|].
  destruct (in_range 194 223 b0).
  { destruct r0 as [|b1 r1]; [discriminate|]. cbn [app]. apply andb_true_iff in Ha. destruct Ha as [-> V].
    apply IH; [cbn; lia|exact V]. }
  destruct (in_range 224 239 b0).
  { destruct r0 as [|b1 [|b2 r2]]; try discriminate. cbn [app].
    apply andb_true_iff in Ha. destruct Ha as [-> V]. apply IH; [cbn; lia|exact V]. }
  destruct (in_range 240 244 b0); [|discriminate].
  destruct r0 as [|b1 [|b2 [|b3 r3]]]; try discriminate. cbn [app].
  apply andb_true_iff in Ha. destruct Ha as [-> V]. apply IH; [cbn; lia|exact V].
Qed.
