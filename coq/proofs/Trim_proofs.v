(* str::trim ignores white space around a string: trim (pad ++ x ++ pad') = trim x for every byte
   string x and all paddings made of white-space characters (ASCII and the non-ASCII White_Space code
   points in UTF-8).  Used by C15: "whitespace around names and values is ignored". *)
From MH Require Export lib.Str.
From Coq Require Import Lia ZifyBool.

(* the UTF-8 encoding of one white-space character *)
Inductive ws_char : bytes -> Prop :=
| ws_c1 a : is_ascii_ws a = true -> ws_char [a]
| ws_c2 a b : ws2 a b = true -> ws_char [a; b]
| ws_c3 a b c : ws3 a b c = true -> ws_char [a; b; c].

Definition ws_string (p : bytes) : Prop := exists cs, Forall ws_char cs /\ p = concat cs.

(* opens the byte tests; ZifyBool then lets lia decide the boolean comparisons *)
Ltac b2p := unfold is_ascii_ws, ws2, ws3, in_range in *.

(* where the bytes of a white-space character lie: everything below is linear arithmetic on these *)
Lemma ascii_ws_le a : is_ascii_ws a = true -> a <= 32.
Proof. b2p. lia. Qed.
Lemma ws2_bytes a b : ws2 a b = true -> a = 194 /\ (b = 133 \/ b = 160).
Proof. b2p. lia. Qed.
Lemma ws3_bytes a b c : ws3 a b c = true -> 225 <= a <= 227 /\ 128 <= b <= 154 /\ 128 <= c <= 175.
Proof. b2p. lia. Qed.

Lemma not_ascii_ws a : 32 < a -> is_ascii_ws a = false.
Proof. intros H. apply not_true_iff_false. intros T. apply ascii_ws_le in T. lia. Qed.
Lemma not_ws2 a b : a <> 194 \/ (b <> 133 /\ b <> 160) -> ws2 a b = false.
Proof. intros H. apply not_true_iff_false. intros T. apply ws2_bytes in T. lia. Qed.
Lemma not_ws3 a b c : b < 128 \/ 154 < b \/ c < 128 \/ 175 < c -> ws3 a b c = false.
Proof. intros H. apply not_true_iff_false. intros T. apply ws3_bytes in T. lia. Qed.

(* every byte of a white-space character is a control byte, a space, or not ASCII *)
Lemma ws_char_bytes c : ws_char c -> Forall (fun a => a <= 32 \/ 128 <= a) c.
Proof.
  intros [a H|a b H|a b c' H]; [apply ascii_ws_le in H|apply ws2_bytes in H|apply ws3_bytes in H];
    repeat constructor; lia.
Qed.

(* a white-space character begins with a control byte, a space, or a lead byte from C2 on *)
Lemma ws_char_first c : ws_char c -> exists a r, c = a :: r /\ (a <= 32 \/ 194 <= a).
Proof.
  intros [a H|a b H|a b c' H]; [apply ascii_ws_le in H|apply ws2_bytes in H|apply ws3_bytes in H];
    eexists _, _; (split; [reflexivity|]); lia.
Qed.

Lemma ws_string_nil : ws_string [].
Proof. exists []. split; [constructor|reflexivity]. Qed.

Lemma ws_string_induction (P : bytes -> Prop) :
  P [] -> (forall c p, ws_char c -> ws_string p -> P p -> P (c ++ p)) -> forall p, ws_string p -> P p.
Proof.
  intros H0 Hs p (cs & Hcs & ->). induction Hcs as [|c cs Hc Hcs IH]; [exact H0|].
  apply Hs; [exact Hc|exists cs; auto|exact IH].
Qed.

Lemma strip_prefix_char c r : ws_char c -> strip_ws_prefix (c ++ r) = Some r.
Proof.
  intros [a H|a b H|a b c' H]; cbn [app strip_ws_prefix].
  - rewrite H. reflexivity.
  - pose proof (ws2_bytes _ _ H). rewrite not_ascii_ws, H by lia. reflexivity.
  - pose proof (ws3_bytes _ _ _ H). rewrite not_ascii_ws, not_ws2, H by lia. reflexivity.
Qed.

Lemma strip_suffix_char c r : ws_char c -> strip_ws_suffix_rev (rev c ++ r) = Some r.
Proof.
  intros [a H|a b H|a b c' H]; cbn [rev app strip_ws_suffix_rev].
  - rewrite H. reflexivity.
  - pose proof (ws2_bytes _ _ H). rewrite not_ascii_ws, H by lia. reflexivity.
  - pose proof (ws3_bytes _ _ _ H). rewrite not_ascii_ws, not_ws2, H by lia. reflexivity.
Qed.

(* conversely, what is stripped is one white-space character *)
Lemma strip_prefix_inv l r : strip_ws_prefix l = Some r -> exists c, ws_char c /\ l = c ++ r.
Proof.
  unfold strip_ws_prefix. destruct l as [|a l]; [discriminate|].
  destruct (is_ascii_ws a) eqn:E1; [intros [= <-]; exists [a]; split; [exact (ws_c1 a E1)|reflexivity]|].
  destruct l as [|b l]; [discriminate|].
  destruct (ws2 a b) eqn:E2; [intros [= <-]; exists [a; b]; split; [exact (ws_c2 a b E2)|reflexivity]|].
  destruct l as [|c l]; [discriminate|].
  destruct (ws3 a b c) eqn:E3; [intros [= <-]; exists [a; b; c]; split; [exact (ws_c3 a b c E3)|reflexivity]|discriminate].
Qed.

Lemma strip_suffix_inv l r : strip_ws_suffix_rev l = Some r -> exists c, ws_char c /\ l = rev c ++ r.
Proof.
  unfold strip_ws_suffix_rev. destruct l as [|c l]; [discriminate|].
  destruct (is_ascii_ws c) eqn:E1; [intros [= <-]; exists [c]; split; [exact (ws_c1 c E1)|reflexivity]|].
  destruct l as [|b l]; [discriminate|].
  destruct (ws2 b c) eqn:E2; [intros [= <-]; exists [b; c]; split; [exact (ws_c2 b c E2)|reflexivity]|].
  destruct l as [|a l]; [discriminate|].
  destruct (ws3 a b c) eqn:E3; [intros [= <-]; exists [a; b; c]; split; [exact (ws_c3 a b c E3)|reflexivity]|discriminate].
Qed.

Lemma ws_char_length c : ws_char c -> (0 < length c)%nat.
Proof. intros []; cbn; lia. Qed.

Lemma strip_prefix_shortens l r : strip_ws_prefix l = Some r -> (length r < length l)%nat.
Proof.
  intros H. destruct (strip_prefix_inv l r H) as (c & Hc & ->). apply ws_char_length in Hc. rewrite app_length. lia.
Qed.
Lemma strip_suffix_shortens l r : strip_ws_suffix_rev l = Some r -> (length r < length l)%nat.
Proof.
  intros H. destruct (strip_suffix_inv l r H) as (c & Hc & ->). apply ws_char_length in Hc.
  rewrite app_length, rev_length. lia.
Qed.

(* what was stripped from the front does not depend on what follows *)
Lemma strip_prefix_app l r q : strip_ws_prefix l = Some r -> strip_ws_prefix (l ++ q) = Some (r ++ q).
Proof.
  intros H. destruct (strip_prefix_inv l r H) as (c & Hc & ->). rewrite <- app_assoc. exact (strip_prefix_char c _ Hc).
Qed.

(* nothing to strip from a non-empty string: still nothing after appending white space *)
Lemma strip_prefix_none_app l q : l <> [] -> strip_ws_prefix l = None -> ws_string q ->
  strip_ws_prefix (l ++ q) = None.
Proof.
  intros Hl Hn Hq. destruct Hq as [|c q Hc _ _] using ws_string_induction; [rewrite app_nil_r; exact Hn|].
  destruct (ws_char_first c Hc) as (a0 & r0 & -> & Ha0).
  unfold strip_ws_prefix in *. destruct l as [|a [|b [|c t]]]; [congruence| | |]; cbn [app].
  - destruct (is_ascii_ws a); [discriminate|]. rewrite not_ws2 by lia.
    destruct (r0 ++ q); [reflexivity|]. rewrite not_ws3 by lia. reflexivity.
  - destruct (is_ascii_ws a); [discriminate|]. destruct (ws2 a b); [discriminate|].
    rewrite not_ws3 by lia. reflexivity.
  - destruct (is_ascii_ws a); [discriminate|]. destruct (ws2 a b); [discriminate|].
    destruct (ws3 a b c); [discriminate|reflexivity].
Qed.

Section Fuel.
Variable strip : bytes -> option bytes.
Hypothesis shortens : forall l r, strip l = Some r -> (length r < length l)%nat.

Lemma iter_strip_fuel : forall n m l, (length l <= n)%nat -> (length l <= m)%nat ->
  iter_strip strip n l = iter_strip strip m l.
Proof.
  induction n as [|n IH]; intros m l Hn Hm.
  - destruct l; [|cbn in Hn; lia]. destruct m; cbn [iter_strip]; [reflexivity|].
    destruct (strip []) as [r|] eqn:S0; [|reflexivity]. apply shortens in S0. cbn in S0. lia.
  - cbn [iter_strip]. destruct (strip l) as [r|] eqn:S0.
    + pose proof (shortens _ _ S0) as Hs. destruct m; [lia|]. cbn [iter_strip]. rewrite S0.
      apply IH; lia.
    + destruct m; cbn [iter_strip]; [reflexivity|]. rewrite S0. reflexivity.
Qed.

Lemma iter_strip_step n l r : (length l <= n)%nat -> strip l = Some r ->
  iter_strip strip n l = iter_strip strip (length r) r.
Proof.
  intros Hn S0. pose proof (shortens _ _ S0) as Hs. destruct n; [lia|]. cbn [iter_strip]. rewrite S0.
  apply iter_strip_fuel; lia.
Qed.

Lemma iter_strip_stop n l : strip l = None -> iter_strip strip n l = l.
Proof. intros S0. destruct n; cbn [iter_strip]; [reflexivity|]. rewrite S0. reflexivity. Qed.
End Fuel.

Lemma trim_start_step l r : strip_ws_prefix l = Some r -> trim_start l = trim_start r.
Proof. intros H. unfold trim_start. apply (iter_strip_step _ strip_prefix_shortens); [lia|exact H]. Qed.
Lemma trim_start_stop l : strip_ws_prefix l = None -> trim_start l = l.
Proof. intros H. unfold trim_start. apply iter_strip_stop. exact H. Qed.

Lemma trim_start_ws p z : ws_string p -> trim_start (p ++ z) = trim_start z.
Proof.
  induction 1 as [|c p Hc _ IH] using ws_string_induction; [reflexivity|].
  rewrite <- app_assoc. rewrite (trim_start_step _ _ (strip_prefix_char c _ Hc)). exact IH.
Qed.

Lemma trim_start_all_ws q : ws_string q -> trim_start q = [].
Proof. intros H. rewrite <- (app_nil_r q). rewrite (trim_start_ws q [] H). reflexivity. Qed.

Lemma trim_start_app_ws x q : ws_string q ->
  (trim_start x = [] /\ trim_start (x ++ q) = []) \/
  (trim_start x <> [] /\ trim_start (x ++ q) = trim_start x ++ q).
Proof.
  intros Hq. induction x as [x IH] using (induction_ltof1 _ (@length N)).
  destruct (strip_ws_prefix x) as [r|] eqn:S0.
  - rewrite (trim_start_step _ _ S0), (trim_start_step _ _ (strip_prefix_app _ _ q S0)).
    exact (IH r (strip_prefix_shortens _ _ S0)).
  - rewrite (trim_start_stop _ S0). destruct x as [|a t].
    + left. split; [reflexivity|]. cbn [app]. apply trim_start_all_ws. exact Hq.
    + right. split; [discriminate|]. apply trim_start_stop. apply strip_prefix_none_app; [discriminate|exact S0|exact Hq].
Qed.

Lemma trim_end_step l r : strip_ws_suffix_rev (rev l) = Some (rev r) -> trim_end l = trim_end r.
Proof.
  intros H. unfold trim_end. f_equal. rewrite <- (rev_length l), <- (rev_length r).
  apply (iter_strip_step _ strip_suffix_shortens); [lia|exact H].
Qed.

Lemma trim_end_ws y q : ws_string q -> trim_end (y ++ q) = trim_end y.
Proof.
  intros (cs & Hcs & ->). induction cs as [|c cs' IH] using rev_ind.
  - cbn [concat]. rewrite app_nil_r. reflexivity.
  - apply Forall_app in Hcs. destruct Hcs as [Hcs' Hc]. inversion Hc as [|? ? Hc1 _]; subst.
    rewrite concat_app. cbn [concat]. rewrite app_nil_r. rewrite app_assoc.
    rewrite (trim_end_step ((y ++ concat cs') ++ c) (y ++ concat cs')).
    + apply IH. exact Hcs'.
    + rewrite rev_app_distr. apply strip_suffix_char. exact Hc1.
Qed.

Lemma trim_end_nil : trim_end [] = [].
Proof. reflexivity. Qed.

Theorem trim_padding p x q : ws_string p -> ws_string q -> trim (p ++ x ++ q) = trim x.
Proof.
  intros Hp Hq. unfold trim. rewrite (trim_start_ws p _ Hp).
  destruct (trim_start_app_ws x q Hq) as [[E1 E2]|[_ E2]]; rewrite E2.
  - rewrite E1. reflexivity.
  - apply trim_end_ws. exact Hq.
Qed.

Lemma ws_string_bytes p : ws_string p -> Forall (fun a => a <= 32 \/ 128 <= a) p.
Proof.
  induction 1 as [|c p Hc _ IH] using ws_string_induction; [constructor|].
  apply Forall_app. split; [apply ws_char_bytes; exact Hc|exact IH].
Qed.

Lemma ws_string_lower p : ws_string p -> ascii_lower p = p.
Proof.
  intros H. apply ws_string_bytes in H. unfold ascii_lower. induction H as [|a p Ha _ IH]; [reflexivity|].
  cbn [map]. rewrite IH. f_equal. unfold lower_byte, in_range.
  destruct (N.leb_spec 65 a), (N.leb_spec a 90); cbn [andb]; lia.
Qed.

Lemma ws_string_no_colon p : ws_string p -> ~ In COLON p.
Proof.
  intros H Hin. apply ws_string_bytes in H. rewrite Forall_forall in H. specialize (H _ Hin). unfold COLON in H. lia.
Qed.

Lemma ws_char_utf8 c r : ws_char c -> utf8_valid (c ++ r) = utf8_valid r.
Proof.
  assert (C : forall b, 128 <= b <= 191 -> is_cont b = true).
  { intros b Hb. unfold is_cont, in_range. rewrite !(proj2 (N.leb_le _ _)) by lia. reflexivity. }
  intros [a H|a b H|a b c' H]; cbn [app utf8_valid].
  - apply ascii_ws_le in H. rewrite (proj2 (N.leb_le a 127)) by lia. reflexivity.
  - apply ws2_bytes in H. destruct H as [-> H]. rewrite C by lia. reflexivity.
  - apply ws3_bytes in H. rewrite !C by lia.
    assert (A : a = 225 \/ a = 226 \/ a = 227) by lia. destruct A as [->|[->| ->]]; reflexivity.
Qed.

Lemma ws_string_utf8 p r : ws_string p -> utf8_valid (p ++ r) = utf8_valid r.
Proof.
  induction 1 as [|c p Hc _ IH] using ws_string_induction; [reflexivity|].
  rewrite <- app_assoc. rewrite (ws_char_utf8 c _ Hc). exact IH.
Qed.

(* non-vacuity: SP, HTAB, NBSP, U+2003 EM SPACE, U+3000 *)
Example ws_example : ws_string [32; 9; 194; 160; 226; 128; 131; 227; 128; 128].
Proof.
  exists [[32]; [9]; [194; 160]; [226; 128; 131]; [227; 128; 128]]. split; [|reflexivity].
  repeat constructor.
Qed.
