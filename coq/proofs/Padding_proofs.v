(* C15: white space around header names and values is ignored. *)
From MH Require Export proofs.Headers_proofs proofs.Trim_proofs.

Lemma ws_string_valid q : ws_string q -> utf8_valid q = true.
Proof. intros H. rewrite <- (app_nil_r q). rewrite (ws_string_utf8 q [] H). reflexivity. Qed.

Lemma padded_valid p k q : ws_string p -> ws_string q -> utf8_valid k = true -> utf8_valid (p ++ k ++ q) = true.
Proof.
  intros Hp Hq Hk. rewrite (ws_string_utf8 p _ Hp). rewrite (utf8_valid_concat k q Hk). apply ws_string_valid. exact Hq.
Qed.

Theorem header_name_padding p k q : ws_string p -> ws_string q -> utf8_valid k = true ->
  header_try_from (p ++ k ++ q) = header_try_from k.
Proof.
  intros Hp Hq Hk. unfold header_try_from. rewrite (padded_valid p k q Hp Hq Hk), Hk.
  unfold ascii_lower. rewrite !map_app. fold (ascii_lower p) (ascii_lower k) (ascii_lower q).
  rewrite (ws_string_lower p Hp), (ws_string_lower q Hq). rewrite (trim_padding p _ q Hp Hq). reflexivity.
Qed.

Theorem padding_ignored h p k q p' v q' :
  ws_string p -> ws_string q -> ws_string p' -> ws_string q' ->
  utf8_valid k = true -> utf8_valid v = true -> ~ In COLON k ->
  parse_header_tolerant h ((p ++ k ++ q) ++ COLON :: (p' ++ v ++ q')) = parse_header_tolerant h (k ++ COLON :: v) \/
  (parse_header_tolerant h ((p ++ k ++ q) ++ COLON :: (p' ++ v ++ q'))
     = Err (HeaderError (InvalidValue (p ++ k ++ q) (p' ++ v ++ q'))) /\
   parse_header_tolerant h (k ++ COLON :: v) = Err (HeaderError (InvalidValue k v))).
Proof.
  intros Hp Hq Hp' Hq' Hk Hv Hc.
  assert (Hc2 : ~ In COLON (p ++ k ++ q)).
  { intros Hin. apply in_app_or in Hin. destruct Hin as [Hin|Hin]; [exact (ws_string_no_colon p Hp Hin)|].
    apply in_app_or in Hin. destruct Hin as [Hin|Hin]; [exact (Hc Hin)|exact (ws_string_no_colon q Hq Hin)]. }
  (* the colon is ASCII: utf8_valid steps over it by computation *)
  assert (V1 : utf8_valid ((p ++ k ++ q) ++ COLON :: (p' ++ v ++ q')) = true).
  { rewrite (utf8_valid_concat _ _ (padded_valid p k q Hp Hq Hk)). apply (padded_valid p' v q'); assumption. }
  assert (V2 : utf8_valid (k ++ COLON :: v) = true).
  { rewrite (utf8_valid_concat _ _ Hk). exact Hv. }
  unfold parse_header_tolerant. rewrite !parse_header_line_at by assumption.
  rewrite (header_name_padding p k q Hp Hq Hk), (trim_padding p' v q' Hp' Hq'), (trim_padding p k q Hp Hq).
  destruct (header_try_from k) as [[]|]; cbn [field_rule]; try (left; reflexivity).
  - destruct (parse_u32 (trim v)); [left; reflexivity|right; split; reflexivity].
  - destruct (parse_media (trim v)); left; reflexivity.
  - destruct (beq (trim v) (B"100-continue")); left; reflexivity.
  - destruct (beq (trim v) (B"chunked")); [left; reflexivity|]. destruct (beq (trim v) (B"identity")); left; reflexivity.
  - destruct (parse_media (trim v)); left; reflexivity.
Qed.

(* in particular a padded line is accepted with the same Headers as the plain one *)
Corollary padding_ok h p k q p' v q' h' :
  ws_string p -> ws_string q -> ws_string p' -> ws_string q' ->
  utf8_valid k = true -> utf8_valid v = true -> ~ In COLON k ->
  (parse_header_tolerant h ((p ++ k ++ q) ++ COLON :: (p' ++ v ++ q')) = Ok h' <->
   parse_header_tolerant h (k ++ COLON :: v) = Ok h').
Proof.
  intros Hp Hq Hp' Hq' Hk Hv Hc.
  destruct (padding_ignored h p k q p' v q' Hp Hq Hp' Hq' Hk Hv Hc) as [E|[E1 E2]].
  - rewrite E. reflexivity.
  - rewrite E1, E2. split; discriminate.
Qed.
