(* HttpRoutes: key injectivity, first registration wins, dispatch = lookup, stamping, and registrations for
   other keys do not change which handler answers. *)
From MH Require Export model.Router proofs.Tokens_proofs.

Lemma route_key_injective m p m' p' : route_key m p = route_key m' p' -> m = m' /\ p = p'.
Proof.
  unfold route_key, method_to_str.
  destruct m, m'; cbn; intros H; inversion H; auto.
Qed.

Lemma method_eqb_eq a b : method_eqb a b = true <-> a = b.
Proof. destruct a, b; cbn; split; intros H; try reflexivity; try discriminate. Qed.

(* the test first_match makes on a registration *)
Lemma same_key_iff m m' full full' : method_eqb m m' && beq full full' = true <-> m = m' /\ full = full'.
Proof. rewrite andb_true_iff, method_eqb_eq, beq_eq. reflexivity. Qed.

Section R.
Variable handler : Type.
Variable run_handler : handler -> request -> response.
Notation routes := (routes handler).
Notation table_get := (table_get handler).
Notation add_route := (add_route handler).
Notation handle_http_request := (handle_http_request handler run_handler).

Definition reg := (method * bytes * handler)%type.

(* the first registration, in registration order, for (method, full path) *)
Fixpoint first_match (m : method) (full prefix : bytes) (regs : list reg) : option handler :=
  match regs with
  | [] => None
  | (m', p', h) :: r =>
      if method_eqb m m' && beq full (prefix ++ p') then Some h else first_match m full prefix r
  end.

Definition register_all (rt : routes) (regs : list reg) : routes :=
  fold_left (fun rt (x : reg) => let '(m, p, h) := x in fst (add_route rt m p h)) regs rt.

Lemma table_get_app k t k' h :
  table_get k (t ++ [(k', h)]) =
  match table_get k t with Some x => Some x | None => if beq k k' then Some h else None end.
Proof.
  induction t as [|[k0 h0] t IH]; cbn; [reflexivity|].
  destruct (beq k k0); auto.
Qed.

Lemma add_route_prefix rt m p h : rt_prefix (fst (add_route rt m p h)) = rt_prefix rt
                                  /\ rt_server_id (fst (add_route rt m p h)) = rt_server_id rt.
Proof. unfold Router.add_route. destruct (table_get _ _); cbn; auto. Qed.

(* C17_duplicate: registering an existing (method, path) is refused and changes nothing *)
Lemma add_route_duplicate rt m p h h0 :
  table_get (route_key m (rt_prefix rt ++ p)) (rt_table rt) = Some h0 ->
  add_route rt m p h = (rt, Some (route_key m (rt_prefix rt ++ p))).
Proof. unfold Router.add_route. intros ->. reflexivity. Qed.

Lemma add_route_fresh rt m p h :
  table_get (route_key m (rt_prefix rt ++ p)) (rt_table rt) = None ->
  snd (add_route rt m p h) = None /\
  rt_table (fst (add_route rt m p h)) = rt_table rt ++ [(route_key m (rt_prefix rt ++ p), h)].
Proof. unfold Router.add_route. intros ->. cbn. auto. Qed.

Lemma key_eqb m full m' full' :
  beq (route_key m full) (route_key m' full') = method_eqb m m' && beq full full'.
Proof.
  apply eq_true_iff_eq. rewrite same_key_iff, beq_eq. split; [apply route_key_injective|intros [-> ->]; reflexivity].
Qed.

Lemma register_all_lookup regs : forall rt m full,
  table_get (route_key m full) (rt_table (register_all rt regs)) =
  match table_get (route_key m full) (rt_table rt) with
  | Some h => Some h
  | None => first_match m full (rt_prefix rt) regs
  end.
Proof.
  induction regs as [|[[m' p'] h'] regs IH]; intros rt m full; cbn [register_all fold_left first_match].
  - destruct (table_get _ _); reflexivity.
  - fold (register_all (fst (add_route rt m' p' h')) regs). rewrite IH.
    destruct (add_route_prefix rt m' p' h') as [Hp _]. rewrite Hp.
    destruct (table_get (route_key m' (rt_prefix rt ++ p')) (rt_table rt)) as [h0|] eqn:D.
    + rewrite (add_route_duplicate rt m' p' h' h0 D). cbn [fst].
      destruct (table_get (route_key m full) (rt_table rt)) as [h1|] eqn:G; [reflexivity|].
      (* the duplicate key is not the one looked up, else the lookup would have succeeded *)
      destruct (method_eqb m m' && beq full (rt_prefix rt ++ p')) eqn:E; [|reflexivity].
      apply same_key_iff in E. destruct E as [-> ->]. congruence.
    + destruct (add_route_fresh rt m' p' h' D) as [_ Ht]. rewrite Ht, table_get_app.
      destruct (table_get (route_key m full) (rt_table rt)) as [h1|] eqn:G; [reflexivity|].
      rewrite key_eqb. destruct (method_eqb m m' && beq full (rt_prefix rt ++ p')); reflexivity.
Qed.

(* C17_dispatch: on a table built by any sequence of registrations, lookup = first registration *)
Theorem dispatch_lookup sid prefix regs m full :
  table_get (route_key m full) (rt_table (register_all (routes_new handler sid prefix) regs))
  = first_match m full prefix regs.
Proof. rewrite register_all_lookup. reflexivity. Qed.

Lemma register_all_ids regs : forall rt, rt_server_id (register_all rt regs) = rt_server_id rt.
Proof.
  induction regs as [|[[m p] h] regs IH]; intros rt; cbn [register_all fold_left]; [reflexivity|].
  fold (register_all (fst (add_route rt m p h)) regs). rewrite IH. apply add_route_prefix.
Qed.

Definition stamp (sid : bytes) (r : response) : response :=
  apply_op (apply_op r (SetServer sid)) (SetContentType ApplicationJson).

(* the router invokes exactly the first-registered handler for (method, abs_path), once, and
   no other; 404 (HTTP/1.1) when there is none; every response is stamped *)
Theorem handle_spec sid prefix regs req :
  let rt := register_all (routes_new handler sid prefix) regs in
  handle_http_request rt req =
  match first_match (rl_method (r_line req)) (abs_path (rl_uri (r_line req))) prefix regs with
  | Some h => (Some h, stamp sid (run_handler h req))
  | None => (None, stamp sid (response_new Http11 NotFound))
  end.
Proof.
  cbn zeta. unfold Router.handle_http_request. rewrite dispatch_lookup.
  rewrite register_all_ids. cbn [rt_server_id routes_new].
  destruct (first_match _ _ _ _); reflexivity.
Qed.

Lemma stamp_fields sid r :
  rs_server (stamp sid r) = sid /\ rs_content_type (stamp sid r) = ApplicationJson
  /\ rs_status (stamp sid r) = rs_status r /\ rs_body (stamp sid r) = rs_body r
  /\ rs_version (stamp sid r) = rs_version r /\ rs_content_length (stamp sid r) = rs_content_length r.
Proof. unfold stamp. cbn. auto 6. Qed.

(* first_match finds a registration for exactly this method and prefix ++ path *)
Lemma first_match_some m full prefix regs h :
  first_match m full prefix regs = Some h ->
  exists pre p post, regs = pre ++ (m, p, h) :: post /\ full = prefix ++ p
    /\ forall m' p' h', In (m', p', h') pre -> ~ (m' = m /\ prefix ++ p' = full).
Proof.
  induction regs as [|[[m' p'] h'] regs IH]; cbn; [discriminate|].
  destruct (method_eqb m m' && beq full (prefix ++ p')) eqn:E.
  - intros [= <-]. apply same_key_iff in E. destruct E as [<- ->].
    exists [], p', regs. cbn. repeat split; auto.
  - intros H. destruct (IH H) as (pre & p & post & -> & -> & Hpre).
    exists ((m', p', h') :: pre), p, post. cbn. repeat split; auto.
    intros m2 p2 h2 [[= <- <- <-]|A]; [|eauto]. intros [-> HB].
    rewrite (proj2 (same_key_iff _ _ _ _)) in E by auto. discriminate.
Qed.

Lemma first_match_none m full prefix regs :
  first_match m full prefix regs = None ->
  forall p h, In (m, p, h) regs -> prefix ++ p <> full.
Proof.
  (* tauto would otherwise take the section variable run_handler into the statement *)
  clear run_handler. induction regs as [|[[m' p'] h'] regs IH]; cbn; [tauto|].
  destruct (method_eqb m m' && beq full (prefix ++ p')) eqn:E; [discriminate|].
  intros H p h [[= <- <- <-]|A]; [|eauto]. intros HB.
  rewrite (proj2 (same_key_iff _ _ _ _)) in E by auto. discriminate.
Qed.

(* non-interference: a registration for another (method, full path) never changes which handler
   answers (method m, path full), wherever it sits in the registration order *)
Lemma first_match_other_irrelevant m full prefix pre m' p' h' post :
  ~ (m' = m /\ prefix ++ p' = full) ->
  first_match m full prefix (pre ++ (m', p', h') :: post) = first_match m full prefix (pre ++ post).
Proof.
  intros HN. induction pre as [|[[m2 p2] h2] pre IH]; cbn [app first_match].
  - destruct (method_eqb m m' && beq full (prefix ++ p')) eqn:E; [|reflexivity].
    apply same_key_iff in E. destruct E as [-> ->]. exfalso. apply HN. auto.
  - rewrite IH. reflexivity.
Qed.
End R.
