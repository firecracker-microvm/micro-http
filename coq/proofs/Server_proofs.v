(* The server on its kernel model.  Each operation is first characterised on the one table entry it
   touches -- a read, a write, an IN, OUT or listener event, a response -- with nothing assumed of
   the rest of the world.  The invariant that every API call preserves, for every order of the events in
   a readiness batch and every fresh descriptor number the kernel may choose, is then read off these
   (C07, C08, C09, C10, C18). *)
From MH Require Export model.Server proofs.Total_proofs.

Lemma pending_enqueue c r : pending_write (enqueue_response c r) = true.
Proof. unfold pending_write, enqueue_response. cbn. destruct (c_rbuf c); [reflexivity|]. destruct (c_rq c); reflexivity. Qed.

Lemma pending_clear c : pending_write (clear_write_buffer c) = false.
Proof. reflexivity. Qed.

Definition drop_parsed (c : conn) : conn :=
  mkConn (c_state c) (c_win c) (c_pending c) (c_body_vec c) (c_body_left c) [] (c_rq c) (c_rbuf c) (c_files c) (c_pmax c).

Lemma pop_all_eq : forall fuel c acc, (length (c_parsed c) < fuel)%nat ->
  pop_all fuel c acc = (drop_parsed c, acc ++ c_parsed c).
Proof.
  induction fuel as [|f IH]; intros c acc Hf; [lia|]. cbn [pop_all]. unfold pop_parsed_request.
  destruct c as [st win pe bv bl [|r q] rq rb fs pm]; cbn [c_parsed] in *.
  - rewrite app_nil_r. reflexivity.
  - rewrite IH by (cbn in *; lia). cbn. rewrite <- app_assoc. reflexivity.
Qed.

Lemma add_files_nil c : add_files c [] = c.
Proof. unfold add_files. rewrite app_nil_r. destruct c; reflexivity. Qed.

Lemma pending_same_write_side c c' : c_rq c' = c_rq c -> c_rbuf c' = c_rbuf c -> pending_write c' = pending_write c.
Proof. intros HA HB. unfold pending_write. rewrite HA, HB. reflexivity. Qed.

(* one write call on a staged buffer [b] of which the stream accepts n bytes, 1 <= n <= |b| *)
Lemma write_staged (b : bytes) n : (1 <= n <= length b)%nat ->
  exists rb, (forall c1, write_out c1 b (WWrote n) = (set_write c1 (c_rq c1) rb, WrOk, Some b)) /\
             rb <> Some [] /\ b = firstn n b ++ match rb with Some r => r | None => [] end /\
             (n = length b -> rb = None).
Proof.
  intros Hn. unfold write_out. destruct n as [|n']; [lia|]. destruct (Nat.eqb_spec (S n') (length b)) as [E|E].
  - exists None. rewrite E, firstn_all, app_nil_r. repeat split. discriminate.
  - destruct (Nat.ltb_spec (length b) (S n')) as [L|L]; [lia|].
    exists (Some (skipn (S n') b)). split; [reflexivity|]. split; [|split; [symmetry; apply firstn_skipn|lia]].
    intros H. injection H as H. apply (f_equal (@length _)) in H.
    change (length (skipn (S n') b) = 0%nat) in H. rewrite skipn_length in H. lia.
Qed.

(* with output pending, try_write stages the slice [bf] that ClientConnection::write takes as offered *)
Lemma stage_pending c : pending_write c = true ->
  let q := match c_rbuf c with Some _ => c_rq c | None => tl (c_rq c) end in
  exists bf, stage c = Some (set_write c q (Some bf), bf) /\
    match c_rbuf c with Some b0 => b0 | None => match c_rq c with r :: _ => serialize r | [] => [] end end = bf /\
    unsent c = bf ++ flat_map serialize q /\ (bf = [] -> c_rbuf c = Some []).
Proof.
  unfold stage, unsent, pending_write. destruct c as [st wi pe bv bl pa rq [b0|] fs pm]; cbn.
  - intros _. exists b0. repeat split. congruence.
  - destruct rq as [|r q]; [discriminate|]. intros _. exists (serialize r). repeat split.
    intros H. destruct (serialize_nonempty r H).
Qed.

(* What a write, or the writes of flush_outgoing_writes, leave of an entry [x] whose client can receive iff
   [b]: [s] has gone from the front of its unsent output. *)
Definition drained (b : bool) (x y : sconn) (s : bytes) : Prop :=
  c_rbuf (sc_conn y) <> Some [] /\
  (sc_st x <> AwaitOut -> sc_st y = sc_st x /\ unsent (sc_conn y) = unsent (sc_conn x) /\ s = []) /\
  (b = false -> s = []) /\
  (b = true -> sc_st x = AwaitOut -> sc_st y <> SClosed /\ unsent (sc_conn x) = s ++ unsent (sc_conn y)).

(* inside the loop of flush_outgoing_writes the state follows the pending output while the epoll
   interest lags behind *)
Definition st_mid (x : sconn) : Prop :=
  pending_write (sc_conn x) = match sc_st x with AwaitOut => true | _ => false end.

(* the write calls a connection's output still takes: one for the buffer being written, one for each queued response *)
Definition writes_needed (c : conn) : nat :=
  ((match c_rbuf c with Some _ => 1 | None => 0 end) + length (c_rq c))%nat.

Lemma set_write_same c : c = set_write c (c_rq c) (c_rbuf c).
Proof. destruct c; reflexivity. Qed.

Lemma drained_trans b x y z s t : drained b x y s -> drained b y z t -> drained b x z (s ++ t).
Proof.
  intros (_ & K1 & N1 & O1) (Hrb & K2 & N2 & O2). split; [exact Hrb|]. split; [|split].
  - intros Hx. destruct (K1 Hx) as (E1 & U1 & ->). destruct (K2 ltac:(congruence)) as (E2 & U2 & ->).
    repeat split; congruence.
  - intros Hb. rewrite (N1 Hb), (N2 Hb). reflexivity.
  - intros Hb Hx. destruct (O1 Hb Hx) as [C1 U1]. rewrite U1, <- app_assoc.
    destruct (sc_st y); [|destruct (O2 Hb eq_refl) as [C2 U2]; rewrite U2; auto|destruct (C1 eq_refl)].
    destruct (K2 ltac:(discriminate)) as (E2 & U2 & ->). rewrite U2. split; [congruence|reflexivity].
Qed.

(* ClientConnection::write on a connection with output pending.  Either the stream accepts a
   non-empty prefix of the unsent output, or the connection ends Closed with its output dropped:
   the client cannot receive, or (never in a reachable state) the staged buffer is empty.
   Offered without a limit (k = 0) the stream takes the whole staged buffer: the last clause, by which
   the loop of flush_outgoing_writes ends. *)
Lemma cc_write_spec x b k :
  sc_st x = AwaitOut -> pending_write (sc_conn x) = true ->
  exists y sent rq rb, cc_write x b k = inl (y, sent) /\ sc_conn y = set_write (sc_conn x) rq rb /\
    sc_gid y = sc_gid x /\ sc_client y = sc_client x /\ sc_infl y = sc_infl x /\ sc_out y = sc_out x /\ st_mid y /\
    (c_rbuf (sc_conn x) <> Some [] -> drained b x y sent /\ (b = true -> sent <> [])) /\
    (k = 0%nat -> sc_st y <> SClosed -> S (writes_needed (sc_conn y)) = writes_needed (sc_conn x)).
Proof.
  intros S0 Hp. unfold cc_write. rewrite S0, try_write_eq.
  destruct (stage_pending _ Hp) as (bf & -> & -> & Hun & Hnil).
  set (n := if Nat.eqb k 0 then length bf else Nat.min k (length bf)).
  assert (Hn : (n <= length bf)%nat /\ (n = 0%nat -> bf = []) /\ (k = 0%nat -> n = length bf)).
  { unfold n. destruct (Nat.eqb_spec k 0); repeat split; try lia; intros; apply length_zero_iff_nil; lia. }
  clearbody n. destruct Hn as (Hle & Hz & Hk). destruct b; [destruct n as [|n']|].
  (* nothing accepted: nothing was staged, or the client cannot receive *)
  1, 3: do 4 eexists; split; [reflexivity|]; unfold drained; cbn; repeat (split; [reflexivity|]);
    (split; [|intros _ N; destruct (N eq_refl)]); intros Hrb.
  - destruct (Hrb (Hnil (Hz eq_refl))).
  - split; [|congruence]. split; [discriminate|]. split; [intros N; destruct (N S0)|]. split; [reflexivity|congruence].
  - destruct (write_staged bf (S n') ltac:(lia)) as (rb & -> & Hrb & Hsplit & Hall).
    do 4 eexists. split; [reflexivity|]. unfold drained, st_mid. cbn [sc_conn sc_gid sc_client sc_infl sc_out sc_st set_write c_rq c_rbuf].
    repeat (split; [reflexivity|]). split; [destruct (pending_write (set_write _ _ rb)); reflexivity|]. split; [intros _|].
    + split; [|intros _; destruct bf; [cbn in Hle; lia|discriminate]].
      split; [exact Hrb|]. split; [intros N; destruct (N S0)|]. split; [discriminate|]. intros _ _.
      split; [destruct (pending_write (set_write _ _ rb)); discriminate|].
      rewrite Hun. unfold unsent. cbn [c_rbuf c_rq set_write]. rewrite Hsplit at 1. rewrite <- app_assoc. reflexivity.
    + (* a whole buffer has gone *)
      intros K _. rewrite (Hall (Hk K)). unfold writes_needed. cbn [set_write c_rbuf c_rq]. unfold pending_write in Hp.
      destruct (c_rbuf (sc_conn x)); [reflexivity|]. destruct (c_rq (sc_conn x)); [discriminate|reflexivity].
Qed.

Section Srv.
Variable BUF : nat.
Hypothesis BUF_min : (2 <= BUF)%nat.
Hypothesis BUF_u32 : N.of_nat BUF < U32_LIMIT.

Notation cc_read := (cc_read BUF).
Notation handle_event := (handle_event BUF).
Notation handle_all := (handle_all BUF).
Notation poll_with := (poll_with BUF).
Notation CInv := (CInv BUF).

(* the interest invariant (C08): what the server believes (state), what the connection holds
   (pending output) and what epoll was told (interest) agree between API calls *)
Definition st_ok (x : sconn) : Prop :=
  match sc_st x with
  | AwaitIn => sc_out x = false /\ pending_write (sc_conn x) = false
  | AwaitOut => sc_out x = true /\ pending_write (sc_conn x) = true
  | SClosed => pending_write (sc_conn x) = false
  end.
Definition cc_ok (x : sconn) : Prop := st_ok x /\ exists ph, CInv (sc_conn x) ph.

(* what ClientConnection::read leaves of the connection record [x]: [rs] yielded, [gen] queued *)
Record read_post (x y : sconn) (rs : list request) (gen : list response) : Prop := {
  rp_gid : sc_gid y = sc_gid x;
  rp_client : sc_client y = sc_client x;
  rp_out : sc_out y = sc_out x;
  rp_infl : sc_infl y = sc_infl x + N.of_nat (length rs);
  rp_st : sc_st y = if pending_write (sc_conn y) then AwaitOut else sc_st x;
  rp_rq : c_rq (sc_conn y) = c_rq (sc_conn x) ++ gen;
  rp_rbuf : c_rbuf (sc_conn y) = c_rbuf (sc_conn x);
  rp_pmax : c_pmax (sc_conn y) = c_pmax (sc_conn x);
  rp_parsed : c_parsed (sc_conn y) = [];
}.

(* a read that returns data: the connection does what the specification parser does on
   carry ++ data, yields every complete request and queues the interim responses and, on a
   parse error, the 400 *)
Theorem cc_read_data x ph bs :
  CInv (sc_conn x) ph -> bs <> [] -> (length (c_win (sc_conn x)) + length bs <= BUF)%nat ->
  let c := sc_conn x in
  cc_read x (RData bs []) = inr EOverflow \/
  match runT BUF (c_pmax c) ph (c_win c ++ bs) [] with
  | RMore ph' carry outs =>
      exists y, cc_read x (RData bs []) = inl (y, c_parsed c ++ reqs_of outs (c_files c)) /\
        read_post x y (c_parsed c ++ reqs_of outs (c_files c)) (conts_of outs) /\
        CInv (sc_conn y) ph' /\ c_win (sc_conn y) = carry /\ c_files (sc_conn y) = files_after outs (c_files c)
  | RErr outs e =>
      exists y, cc_read x (RData bs []) = inl (y, []) /\
        read_post x y [] (conts_of outs ++ [bad_request_response e]) /\
        CInv (sc_conn y) PLine /\ c_win (sc_conn y) = [] /\ c_files (sc_conn y) = []
  | ROutOfFuel => False
  end.
Proof.
  intros I Hne Hlen c.
  pose proof (try_read_data BUF BUF_min BUF_u32 c ph bs [] I Hne Hlen) as D. rewrite add_files_nil in D.
  unfold Server.cc_read. fold c.
  destruct (runT BUF (c_pmax c) ph (c_win c ++ bs) []) as [ph' carry outs|outs e|]; [| |destruct D].
  - destruct D as (c' & -> & I' & Hw & P). rewrite pop_all_eq by lia.
    destruct (U32_LIMIT <=? _); [left; reflexivity|right].
    eexists. split; [rewrite (post_parsed _ _ _ P); reflexivity|]. cbn [sc_conn]. split; [|split; [|split]].
    + constructor; cbn; try reflexivity; apply P.
    + apply (CInv_parser_same BUF c' _ _ I'). repeat split.
    + exact Hw.
    + apply P.
  - destruct D as (c1 & -> & P). rewrite pop_all_eq by lia.
    destruct (U32_LIMIT <=? _) eqn:O; [left; reflexivity|right].
    eexists. split; [reflexivity|]. cbn [sc_conn]. split; [|split; [|split; reflexivity]].
    + constructor; cbn [sc_gid sc_client sc_out sc_infl sc_st sc_conn c_rq c_rbuf c_pmax c_parsed enqueue_response
                        set_write drop_parsed reset_parser length fst]; try reflexivity; try apply P.
      rewrite (post_rq _ _ _ P), app_assoc. reflexivity.
    + apply (CInv_parser_same BUF (reset_parser c1)); [apply CInv_reset; assumption|repeat split].
Qed.

(* the bytes one IN event reads *)
Definition in_data (w : world) (x : sconn) (kk : nat) : bytes :=
  let t := k_tosrv (client_of w (sc_client x)) in
  firstn (read_amount kk (BUF - length (c_win (sc_conn x))) (length t)) t.

Lemma in_data_fits w x kk ph : CInv (sc_conn x) ph ->
  (k_tosrv (client_of w (sc_client x)) <> [] -> in_data w x kk <> []) /\
  (length (c_win (sc_conn x)) + length (in_data w x kk) <= BUF)%nat.
Proof.
  intros [_ St]. apply (stuck_short BUF BUF_min BUF_u32) in St. unfold in_data, read_amount.
  destruct (k_tosrv (client_of w (sc_client x))) as [|b t]; [rewrite firstn_nil; cbn; split; [congruence|lia]|].
  split; [|rewrite firstn_length; destruct (Nat.eqb kk 0); lia].
  intros _ E. apply (f_equal (@length _)) in E. rewrite firstn_length in E. cbn [length] in E.
  destruct (Nat.eqb kk 0) eqn:K; [|apply Nat.eqb_neq in K]; lia.
Qed.

(* the interest in OUT is registered when a read leaves output pending *)
Definition want_out (y : sconn) : sconn :=
  match sc_st y with
  | AwaitOut => mkSC (sc_conn y) (sc_st y) (sc_infl y) (sc_client y) true (sc_gid y)
  | _ => y
  end.

Lemma want_out_same y :
  sc_conn (want_out y) = sc_conn y /\ sc_gid (want_out y) = sc_gid y /\ sc_client (want_out y) = sc_client y /\
  sc_infl (want_out y) = sc_infl y /\ sc_st (want_out y) = sc_st y.
Proof using. unfold want_out. destruct (sc_st y) eqn:Sy; cbn; auto. Qed.

Lemma in_data_length w x kk :
  length (in_data w x kk) =
  read_amount kk (BUF - length (c_win (sc_conn x))) (length (k_tosrv (client_of w (sc_client x)))).
Proof.
  unfold in_data. rewrite firstn_length. apply Nat.min_l.
  unfold read_amount. destruct (Nat.eqb kk 0); lia.
Qed.

Lemma pending_grows c c' gen : c_rq c' = c_rq c ++ gen -> c_rbuf c' = c_rbuf c ->
  pending_write c = true -> pending_write c' = true.
Proof.
  unfold pending_write. intros -> ->. destruct (c_rbuf c); [auto|]. destruct (c_rq c); [discriminate|reflexivity].
Qed.

Lemma st_ok_read x y rs gen : st_ok x -> read_post x y rs gen -> st_ok (want_out y).
Proof.
  intros Hx P. pose proof (rp_st _ _ _ _ P) as Es. unfold want_out.
  destruct (pending_write (sc_conn y)) eqn:Py; rewrite Es.
  - unfold st_ok. cbn. auto.
  - assert (Px : pending_write (sc_conn x) = false).
    { destruct (pending_write (sc_conn x)) eqn:E; [|reflexivity].
      rewrite (pending_grows _ _ gen (rp_rq _ _ _ _ P) (rp_rbuf _ _ _ _ P) E) in Py. discriminate. }
    unfold st_ok in *. destruct (sc_st x); rewrite ?Es; [rewrite (rp_out _ _ _ _ P); tauto|destruct Hx; congruence|exact Py].
Qed.

(* what handle_in says of the entry a read leaves, once the OUT interest is registered *)
Lemma read_post_entry x y rs gen ph1 : st_ok x -> read_post x y rs gen -> CInv (sc_conn y) ph1 ->
  sc_gid (want_out y) = sc_gid x /\ sc_client (want_out y) = sc_client x /\
  sc_infl (want_out y) = sc_infl x + N.of_nat (length rs) /\
  c_rq (sc_conn (want_out y)) = c_rq (sc_conn x) ++ gen /\ c_rbuf (sc_conn (want_out y)) = c_rbuf (sc_conn x) /\
  c_pmax (sc_conn (want_out y)) = c_pmax (sc_conn x) /\
  (sc_out x = false -> cc_ok (want_out y)) /\ st_ok (want_out y) /\
  (sc_st x <> SClosed -> sc_st (want_out y) <> SClosed) /\ c_parsed (sc_conn (want_out y)) = [].
Proof using.
  intros Hst P I1. pose proof (st_ok_read x y _ _ Hst P) as Hsy.
  destruct (want_out_same y) as (E1 & E2 & E3 & E4 & Es). rewrite E1, E2, E3, E4, Es. destruct P.
  repeat (split; [assumption|]). split; [intros _; split; [exact Hsy|exists ph1; rewrite E1; exact I1]|].
  split; [exact Hsy|]. split; [|assumption]. rewrite rp_st0. destruct (pending_write (sc_conn y)); [discriminate|auto].
Qed.

(* one IN event through HttpServer::requests, for the entry [x] at [fd] alone: nothing is assumed of the rest
   of the world, so every invariant of the server can read its preservation off this one statement.
   [cc_ok y] is conditional because an entry with OUT interest that reads the end of the stream ends Closed with
   its output still pending. *)
Theorem handle_in w fd kk x ph :
  alookup fd (w_conns w) = Some x -> st_ok x -> CInv (sc_conn x) ph ->
  let c := sc_conn x in
  let cl := client_of w (sc_client x) in
  let d := in_data w x kk in
  handle_event w (EvIn fd kk) = inr EOverflow \/
  exists y rs gen,
    handle_event w (EvIn fd kk) =
      inl (set_client (set_conn w fd y) (sc_client x)
             (mkCl (k_open cl) (k_shut_wr cl) (k_shut_rd cl) (skipn (length d) (k_tosrv cl)) (k_rx cl) (k_place cl)),
           map (fun r => (fd, sc_gid x, r)) rs) /\
    sc_gid y = sc_gid x /\ sc_client y = sc_client x /\ sc_infl y = sc_infl x + N.of_nat (length rs) /\
    c_rq (sc_conn y) = c_rq c ++ gen /\ c_rbuf (sc_conn y) = c_rbuf c /\ c_pmax (sc_conn y) = c_pmax c /\
    (sc_out x = false -> cc_ok y) /\
    match d with
    | [] => y = mkSC c SClosed (sc_infl x) (sc_client x) (sc_out x) (sc_gid x) /\ rs = [] /\ gen = []
    | _ =>
      st_ok y /\ (sc_st x <> SClosed -> sc_st y <> SClosed) /\ c_parsed (sc_conn y) = [] /\
      match runT BUF (c_pmax c) ph (c_win c ++ d) [] with
      | RMore ph' carry outs =>
          rs = c_parsed c ++ reqs_of outs (c_files c) /\ gen = conts_of outs /\
          CInv (sc_conn y) ph' /\ c_win (sc_conn y) = carry /\ c_files (sc_conn y) = files_after outs (c_files c)
      | RErr outs e =>
          rs = [] /\ gen = conts_of outs ++ [bad_request_response e] /\
          CInv (sc_conn y) PLine /\ c_win (sc_conn y) = [] /\ c_files (sc_conn y) = []
      | ROutOfFuel => False
      end
    end.
Proof.
  intros HL Hst I c cl d. destruct (in_data_fits w x kk ph I) as [_ Hfit]. fold d c in Hfit.
  cbn [Server.handle_event]. rewrite HL.
  change (firstn _ (k_tosrv (client_of w (sc_client x)))) with (in_data w x kk). rewrite <- in_data_length. fold d cl c. clearbody d.
  destruct d as [|b d'].
  - (* nothing to read: end of stream *)
    right. unfold Server.cc_read, try_read.
    assert (E : (BUF <=? length (c_win c))%nat = false)
      by (apply Nat.leb_gt, (stuck_short BUF BUF_min BUF_u32 (c_pmax c) ph), I).
    fold c. rewrite E. exists (mkSC c SClosed (sc_infl x) (sc_client x) (sc_out x) (sc_gid x)), [], [].
    rewrite add_files_nil. cbn. rewrite N.add_0_r, app_nil_r. repeat (split; [reflexivity|]). split; [|auto].
    intros Ho. split; [|exists ph; exact I]. unfold st_ok in *. cbn. destruct (sc_st x); [tauto|destruct Hst; congruence|exact Hst].
  - pose proof (cc_read_data x ph (b :: d') I ltac:(discriminate) Hfit) as [O|D]; [left; rewrite O; reflexivity|right].
    fold c in D. destruct (runT BUF (c_pmax c) ph (c_win c ++ b :: d') []) as [ph' carry outs|outs e|]; [| |destruct D].
    (* in both outcomes of the parser the entry is the one the read leaves, with the OUT interest registered *)
    all: destruct D as (y & -> & P & I' & Hw & Hf); exists (want_out y); do 2 eexists;
      destruct (read_post_entry x y _ _ _ Hst P I') as (A1 & A2 & A3 & A4 & A5 & A6 & A7 & A8 & A9 & A10);
      destruct (want_out_same y) as (E1 & _); rewrite E1 in *; eauto 16.
Qed.

(* the interest goes back to IN when a write leaves nothing pending *)
Definition want_in (y : sconn) : sconn :=
  match sc_st y with
  | AwaitIn => mkSC (sc_conn y) (sc_st y) (sc_infl y) (sc_client y) false (sc_gid y)
  | _ => y
  end.

Lemma want_in_same y :
  sc_conn (want_in y) = sc_conn y /\ sc_gid (want_in y) = sc_gid y /\ sc_client (want_in y) = sc_client y /\
  sc_infl (want_in y) = sc_infl y /\ sc_st (want_in y) = sc_st y.
Proof using. unfold want_in. destruct (sc_st y) eqn:Sy; cbn; auto. Qed.

(* one OUT event through HttpServer::requests, for the entry [x] at [fd] alone *)
Theorem handle_out w fd kk x :
  alookup fd (w_conns w) = Some x -> st_ok x -> sc_out x = true ->
  let cl := client_of w (sc_client x) in
  exists y sent rq rb,
    handle_event w (EvOut fd kk) =
      inl (set_client (set_conn w fd y) (sc_client x)
             (mkCl (k_open cl) (k_shut_wr cl) (k_shut_rd cl) (k_tosrv cl) (k_rx cl ++ sent) (k_place cl)), []) /\
    sc_conn y = set_write (sc_conn x) rq rb /\
    sc_gid y = sc_gid x /\ sc_client y = sc_client x /\ sc_infl y = sc_infl x /\ st_ok y /\
    (c_rbuf (sc_conn x) <> Some [] ->
     drained (k_can_receive cl) x y sent /\ (k_can_receive cl = true -> sc_st x = AwaitOut -> sent <> [])).
Proof.
  intros HL Hst Ho cl. cbn [Server.handle_event]. rewrite HL. fold cl.
  unfold st_ok in Hst. destruct (sc_st x) eqn:S0; [destruct Hst; congruence| |].
  - destruct Hst as [_ Hp].
    destruct (cc_write_spec x (k_can_receive cl) kk S0 Hp) as (y & sent & rq & rb & -> & Ec & Eg & Ecl & Ei & Eo & Hm & D & _).
    destruct (want_in_same y) as (E1 & E2 & E3 & E4 & E5).
    exists (want_in y), sent, rq, rb. unfold drained. rewrite E1, E2, E3, E4, E5.
    split; [reflexivity|]. repeat (split; [assumption|]).
    split; [|intros Hx; destruct (D Hx) as [D1 D2]; split; [exact D1|intros CR _; exact (D2 CR)]].
    unfold st_ok, want_in, st_mid in *. destruct (sc_st y) eqn:Sy; cbn [sc_st sc_out sc_conn]; rewrite ?Sy, ?Eo; auto.
  - exists x, [], (c_rq (sc_conn x)), (c_rbuf (sc_conn x)). unfold cc_write. rewrite S0. rewrite S0.
    split; [reflexivity|]. split; [apply set_write_same|]. repeat (split; [reflexivity|]).
    split; [unfold st_ok; rewrite S0; exact Hst|]. intros Hx. split; [repeat split; auto; intros; congruence|congruence].
Qed.

Lemma alookup_aupdate {A} k k' (v : A) l :
  alookup k' (aupdate k v l) = if Nat.eqb k k' then option_map (fun _ => v) (alookup k l) else alookup k' l.
Proof.
  induction l as [|[k0 v0] t IH]; cbn; [destruct (Nat.eqb k k'); reflexivity|].
  destruct (Nat.eqb k0 k) eqn:E0; cbn.
  - apply Nat.eqb_eq in E0. subst k0. destruct (Nat.eqb k k'); reflexivity.
  - rewrite IH. destruct (Nat.eqb k k') eqn:E1; [|reflexivity].
    apply Nat.eqb_eq in E1. subst k'. rewrite E0. reflexivity.
Qed.

Lemma aupdate_absent {A} k (v : A) l : alookup k l = None -> aupdate k v l = l.
Proof.
  induction l as [|[k0 v0] t IH]; cbn; [reflexivity|]. destruct (Nat.eqb k0 k); [discriminate|].
  intros H. rewrite IH by exact H. reflexivity.
Qed.

Lemma aupdate_same {A} k (v : A) l : alookup k l = Some v -> aupdate k v l = l.
Proof.
  induction l as [|[k0 v0] t IH]; cbn; [discriminate|]. destruct (Nat.eqb_spec k0 k) as [->|].
  - intros H; injection H as ->; reflexivity.
  - intros H. rewrite IH by exact H. reflexivity.
Qed.

Lemma alookup_update_same {A} fd (y : A) l x : alookup fd l = Some x -> alookup fd (aupdate fd y l) = Some y.
Proof. intros H. rewrite alookup_aupdate, Nat.eqb_refl, H. reflexivity. Qed.
Lemma alookup_update_other {A} fd fd' (y : A) l : fd <> fd' -> alookup fd' (aupdate fd y l) = alookup fd' l.
Proof. intros Hne. rewrite alookup_aupdate. destruct (Nat.eqb_spec fd fd'); [congruence|reflexivity]. Qed.
Lemma keys_update {A} fd (y : A) l : map fst (aupdate fd y l) = map fst l.
Proof. induction l as [|[k v] t IH]; cbn; [reflexivity|]. destruct (Nat.eqb k fd); cbn; congruence. Qed.
Lemma alookup_none_notin {A} fd (l : list (nat * A)) : alookup fd l = None -> ~ In fd (map fst l).
Proof.
  induction l as [|[k v] t IH]; cbn; [tauto|]. destruct (Nat.eqb_spec k fd); [discriminate|].
  intros H [HA|HA]; [congruence|exact (IH H HA)].
Qed.
Lemma alookup_update_cases {A} fd fd' (y : A) l z : alookup fd' (aupdate fd y l) = Some z ->
  (fd' = fd /\ z = y /\ exists x, alookup fd l = Some x) \/ (fd' <> fd /\ alookup fd' l = Some z).
Proof.
  rewrite alookup_aupdate. destruct (Nat.eqb_spec fd fd') as [->|Hne]; [|intros H; right; split; [congruence|exact H]].
  destruct (alookup fd' l) as [x|]; [|discriminate]. intros H; injection H as <-. left. eauto.
Qed.
Lemma alookup_app_end {A} fd nf (x : A) l :
  alookup fd (l ++ [(nf, x)]) = match alookup fd l with Some v => Some v | None => if Nat.eqb nf fd then Some x else None end.
Proof. induction l as [|[k v] t IH]; cbn; [reflexivity|]. destruct (Nat.eqb k fd); auto. Qed.
Lemma alookup_some_in {A} fd x (l : list (nat * A)) : alookup fd l = Some x -> In (fd, x) l.
Proof.
  induction l as [|[k v] t IH]; cbn; [discriminate|]. destruct (Nat.eqb_spec k fd) as [->|]; [|auto].
  intros H; injection H as ->; auto.
Qed.
Lemma alookup_in_nodup {A} fd x (l : list (nat * A)) : NoDup (map fst l) -> In (fd, x) l -> alookup fd l = Some x.
Proof.
  induction l as [|[k v] t IH]; cbn; [tauto|]. intros [Hk Ht]%NoDup_cons_iff [H|H].
  - injection H as -> ->. rewrite Nat.eqb_refl. reflexivity.
  - destruct (Nat.eqb_spec k fd) as [->|]; [destruct Hk; exact (in_map fst _ _ H)|auto].
Qed.
Lemma nodup_filter_keys {A} f (l : list (nat * A)) : NoDup (map fst l) -> NoDup (map fst (filter f l)).
Proof.
  induction l as [|[k v] t IH]; cbn; [auto|]. intros [Hk Ht]%NoDup_cons_iff.
  destruct (f (k, v)); cbn; [constructor|]; auto.
  intros Hin. exact (Hk (incl_map fst (incl_filter f t) _ Hin)).
Qed.
Lemma NoDup_app_end {A} (l : list A) x : NoDup l -> ~ In x l -> NoDup (l ++ [x]).
Proof. intros ND Hn. apply (NoDup_Add (Add_app x l [])). rewrite app_nil_r. auto. Qed.
Lemma filter_length_le {A} (f : A -> bool) l : (length (filter f l) <= length l)%nat.
Proof. induction l as [|a t IH]; cbn; [lia|]. destruct (f a); cbn; lia. Qed.

Lemma client_after (w w' : world) c0 cl' c :
  w_clients w' = aupdate c0 cl' (w_clients w) ->
  client_of w' c = if Nat.eqb c0 c then match alookup c0 (w_clients w) with Some _ => cl' | None => dead_client end
                   else client_of w c.
Proof.
  intros E. unfold client_of. rewrite E, alookup_aupdate.
  destruct (Nat.eqb_spec c0 c) as [<-|]; [|reflexivity]. destruct (alookup c0 (w_clients w)); reflexivity.
Qed.

Lemma client_of_set_client w c cl c' :
  client_of (set_client w c cl) c' =
  if Nat.eqb c c' then match alookup c (w_clients w) with Some _ => cl | None => dead_client end else client_of w c'.
Proof. exact (client_after w (set_client w c cl) c cl c' eq_refl). Qed.

Lemma set_client_same w c : set_client w c (client_of w c) = w.
Proof.
  unfold set_client, client_of. destruct (alookup c (w_clients w)) eqn:E.
  - rewrite (aupdate_same _ _ _ E). destruct w; reflexivity.
  - rewrite (aupdate_absent _ _ _ E). destruct w; reflexivity.
Qed.

Definition tok := (nat * nat)%type.            (* descriptor, connection instance *)
Definition count_g (g : nat) (ts : list tok) : nat := length (filter (fun t => Nat.eqb (snd t) g) ts).
Definition ytoks (ys : list yield) : list tok := map (fun y => (fst (fst y), snd (fst y))) ys.

Lemma ytoks_app a b : ytoks (a ++ b) = ytoks a ++ ytoks b.
Proof. apply map_app. Qed.

Lemma count_g_app g a b : count_g g (a ++ b) = (count_g g a + count_g g b)%nat.
Proof. unfold count_g. rewrite filter_app, app_length. reflexivity. Qed.
Lemma count_g_new g fd g' (rs : list request) :
  count_g g (ytoks (map (fun r => (fd, g', r)) rs)) = if Nat.eqb g' g then length rs else 0%nat.
Proof.
  unfold count_g, ytoks. induction rs as [|r t IH]; cbn; [destruct (Nat.eqb g' g); reflexivity|].
  destruct (Nat.eqb g' g) eqn:E; cbn; rewrite IH; reflexivity.
Qed.
Lemma count_g_pos fd g ts : In (fd, g) ts -> (1 <= count_g g ts)%nat.
Proof.
  unfold count_g. induction ts as [|[a b] t IH]; cbn; [tauto|]. intros [H|H].
  - injection H as -> ->. rewrite Nat.eqb_refl. cbn. lia.
  - specialize (IH H). destruct (Nat.eqb b g); cbn; lia.
Qed.
Lemma count_g_zero g ts : (forall fd, ~ In (fd, g) ts) -> count_g g ts = 0%nat.
Proof.
  unfold count_g. induction ts as [|[a b] t IH]; cbn; [reflexivity|]. intros H.
  destruct (Nat.eqb b g) eqn:E.
  - apply Nat.eqb_eq in E; subst. exfalso. apply (H a). left; reflexivity.
  - apply IH. intros fd Hin. apply (H fd). right; exact Hin.
Qed.

(* a readiness report holds at most one event for each registered descriptor (K4): the connections', the
   listener's, the kill switch's *)
Inductive ekey := KKill | KListen | KConn (fd : nat).
Definition ev_key (e : event) : ekey :=
  match e with EvKill => KKill | EvListener _ => KListen | EvHup fd | EvIn fd _ | EvOut fd _ => KConn fd end.

(* the connection and the client an event on [fd] leaves behind keep who they are *)
Definition same_peer (x y : sconn) : Prop := sc_gid y = sc_gid x /\ sc_client y = sc_client x.
Definition same_flags (cl cl' : client) : Prop :=
  k_open cl' = k_open cl /\ k_shut_wr cl' = k_shut_wr cl /\ k_shut_rd cl' = k_shut_rd cl /\ k_place cl' = k_place cl.

Lemma cc_read_peer x ev y rs : cc_read x ev = inl (y, rs) -> same_peer x y.
Proof.
  unfold Server.cc_read. destruct (try_read BUF (sc_conn x) ev) as [[c1 res] sys].
  destruct res as [|[]|]; try discriminate;
    repeat match goal with |- context [let '(_, _) := ?p in _] => destruct p end;
    try (destruct (U32_LIMIT <=? _); [discriminate|]); intros H; injection H as <- _; split; reflexivity.
Qed.

Lemma cc_write_peer x b k y sent : cc_write x b k = inl (y, sent) -> same_peer x y.
Proof.
  unfold cc_write. destruct (sc_st x); try (intros H; injection H as <- _; split; reflexivity);
    destruct (try_write _ _) as [[c1 res] off]; destruct res as [|[]|]; try discriminate;
    intros H; injection H as <- _; split; reflexivity.
Qed.

(* an event on a connection rewrites its table entry and the record of its client, and nothing else *)
Definition conn_shape (w : world) (e : event) (fd : nat) (w' : world) (ys : list yield) : Prop :=
  exists x y cl' rs, alookup fd (w_conns w) = Some x /\ same_peer x y /\
    w' = set_client (set_conn w fd y) (sc_client x) cl' /\ ys = map (fun r => (fd, sc_gid x, r)) rs /\
    ((forall g k, e <> EvIn g k) -> rs = [] /\ k_tosrv cl' = k_tosrv (client_of w (sc_client x))) /\
    ((forall g k, e <> EvOut g k) -> k_rx cl' = k_rx (client_of w (sc_client x))).

Theorem handle_conn_shape w e fd w' ys :
  ev_key e = KConn fd -> handle_event w e = inl (w', ys) -> conn_shape w e fd w' ys.
Proof.
  unfold conn_shape.
  destruct e as [g|g kk|g kk| |]; try discriminate; intros E; injection E as ->; cbn [Server.handle_event];
    destruct (alookup fd (w_conns w)) as [x|]; try discriminate.
  - intros H; injection H as <- <-.
    exists x, (mkSC (clear_write_buffer (sc_conn x)) SClosed (sc_infl x) (sc_client x) (sc_out x) (sc_gid x)), (client_of w (sc_client x)), [].
    rewrite (set_client_same (set_conn w fd _)). repeat split.
  - destruct (cc_read x _) as [[y rs]|] eqn:R; [|discriminate]. intros H; injection H as <- <-.
    destruct (cc_read_peer _ _ _ _ R). exists x, (want_out y); eexists; exists rs.
    split; [reflexivity|]. split; [unfold want_out; split; destruct (sc_st y); assumption|].
    split; [reflexivity|]. split; [reflexivity|]. split; [intros N; destruct (N _ _ eq_refl)|reflexivity].
  - destruct (cc_write x _ kk) as [[y sent]|] eqn:W; [|discriminate]. intros H; injection H as <- <-.
    destruct (cc_write_peer _ _ _ _ _ W). exists x, (want_in y); eexists; exists [].
    split; [reflexivity|]. split; [unfold want_in; split; destruct (sc_st y); assumption|].
    split; [reflexivity|]. split; [reflexivity|]. split; [split; reflexivity|intros N; destruct (N _ _ eq_refl)].
Qed.

(* the listener: the oldest waiting client is refused when the table is full, accepted otherwise *)
Definition refused_world (w : world) (c : nat) (cl : client) (rest : list nat) : world :=
  Server.mkW (aupdate c (mkCl (k_open cl) (k_shut_wr cl) (k_shut_rd cl) []
                           (if k_can_receive cl then k_rx cl ++ SERVER_FULL_ERROR_MESSAGE else k_rx cl) Gone) (w_clients w))
      (w_conns w) rest (w_tokens w) (w_nextg w) (w_limit w) (w_killed w).
Definition accepted_world (w : world) (c : nat) (cl : client) (rest : list nat) (nf : nat) : world :=
  Server.mkW (aupdate c (mkCl (k_open cl) (k_shut_wr cl) (k_shut_rd cl) (k_tosrv cl) (k_rx cl) (Accepted nf)) (w_clients w))
      (w_conns w ++ [(nf, mkSC (set_payload_max_size conn_new (w_limit w)) AwaitIn 0 c false (w_nextg w))])
      rest (w_tokens w) (S (w_nextg w)) (w_limit w) (w_killed w).

Lemma handle_listen_eq w nf :
  handle_event w (EvListener nf) =
  inl (match w_backlog w with
       | [] => w
       | c :: rest => if Nat.eqb (length (w_conns w)) MAX_CONNECTIONS
                      then refused_world w c (client_of w c) rest
                      else accepted_world w c (client_of w c) rest nf
       end, []).
Proof.
  cbn [Server.handle_event]. destruct (w_backlog w); [reflexivity|].
  destruct (Nat.eqb (length (w_conns w)) MAX_CONNECTIONS); reflexivity.
Qed.

(* an event that is handled is a connection's or the listener's: the kill event ends the batch *)
Lemma handle_event_cases w e w' ys : handle_event w e = inl (w', ys) ->
  (exists fd, ev_key e = KConn fd /\ conn_shape w e fd w' ys) \/
  (exists nf, e = EvListener nf /\ ys = [] /\
     w' = match w_backlog w with
          | [] => w
          | c :: rest => if Nat.eqb (length (w_conns w)) MAX_CONNECTIONS
                         then refused_world w c (client_of w c) rest
                         else accepted_world w c (client_of w c) rest nf
          end).
Proof.
  intros H. destruct (ev_key e) as [| |fd] eqn:K.
  - destruct e; discriminate.
  - right. destruct e as [| | |nf|]; try discriminate. rewrite handle_listen_eq in H. injection H as <- <-. eauto.
  - left. exists fd. split; [reflexivity|exact (handle_conn_shape w e fd w' ys K H)].
Qed.

Definition answered (x : sconn) (r : response) : sconn :=
  mkSC (match sc_st x with SClosed => sc_conn x | _ => enqueue_response (sc_conn x) r end)
       (match sc_st x with AwaitIn => AwaitOut | s => s end) (sc_infl x - 1) (sc_client x)
       (match sc_st x with AwaitIn => true | _ => sc_out x end) (sc_gid x).

Lemma respond_eq w fd r :
  respond w fd r =
  match alookup fd (w_conns w) with
  | None => inl w
  | Some x => if sc_infl x =? 0 then inr EUnderflow else inl (set_conn w fd (answered x r))
  end.
Proof.
  unfold respond, cc_enqueue, answered. destruct (alookup fd (w_conns w)) as [x|]; [|reflexivity].
  destruct (sc_st x) eqn:S0; cbn [sc_st sc_infl sc_conn sc_client sc_out sc_gid]; rewrite ?S0;
    destruct (sc_infl x =? 0); reflexivity.
Qed.

Lemma respond_inl w fd r w' : respond w fd r = inl w' ->
  match alookup fd (w_conns w) with Some x => w' = set_conn w fd (answered x r) | None => w' = w end.
Proof.
  rewrite respond_eq. destruct (alookup fd (w_conns w)) as [x|]; [destruct (sc_infl x =? 0)|];
    intros H; try discriminate H; injection H as <-; reflexivity.
Qed.

Lemma handle_all_acc : forall es w acc,
  handle_all w es acc = match handle_all w es [] with inl (w', ys) => inl (w', acc ++ ys) | inr e => inr e end.
Proof.
  induction es as [|e t IH]; intros w acc; cbn [Server.handle_all]; [rewrite app_nil_r; reflexivity|].
  destruct (handle_event w e) as [[w1 ys1]|]; [|reflexivity].
  rewrite (IH w1 (acc ++ ys1)), (IH w1 ([] ++ ys1)). destruct (handle_all w1 t []) as [[w2 ys2]|]; [|reflexivity].
  rewrite app_assoc. reflexivity.
Qed.

Lemma handle_all_app : forall a b w acc,
  handle_all w (a ++ b) acc = match handle_all w a acc with inl (w', ys) => handle_all w' b ys | inr e => inr e end.
Proof.
  induction a as [|e t IH]; intros b w acc; cbn [app Server.handle_all]; [reflexivity|].
  destruct (handle_event w e) as [[w1 ys1]|]; [apply IH|reflexivity].
Qed.

Lemma poll_with_yield w es w' ys :
  poll_with w es = PYield w' ys -> es <> [] /\ exists w1, handle_all w es [] = inl (w1, ys) /\ w' = sweep w1.
Proof.
  unfold Server.poll_with. destruct es as [|e t]; [discriminate|].
  destruct (handle_all w (e :: t) []) as [[w1 ys1]|]; [|discriminate]. intros [= <- <-].
  split; [discriminate|eauto].
Qed.

(* A batch in any order.  [Q] is what the kernel promises of each event of the batch, relative to the
   world the batch starts in; [P] is what is to be shown of the worlds the batch passes through and of
   the yields so far.  It is enough that one event keeps [P] and does not disturb [Q] of events with
   other keys. *)
Section Batch.
Variable Q : world -> event -> Prop.
Variable F : event -> Prop.
Variable P : world -> list yield -> Prop.
Hypothesis step : forall w ys0 e w' ys, P w ys0 -> Q w e -> F e -> handle_event w e = inl (w', ys) ->
  P w' (ys0 ++ ys) /\ forall e', Q w e' -> ev_key e' <> ev_key e -> Q w' e'.

(* [F] sorts the events handled ([pre]) from those the same report holds beside them ([post]): after [pre],
   the kernel's promise still holds of [post] *)
Lemma batch_prefix : forall pre post w acc w1 ys1,
  P w acc -> Forall (Q w) (pre ++ post) -> NoDup (map ev_key (pre ++ post)) -> Forall F pre ->
  handle_all w pre acc = inl (w1, ys1) -> P w1 ys1 /\ Forall (Q w1) post.
Proof.
  induction pre as [|e t IH]; intros post w acc w1 ys1 HP Hall Hnd HF; cbn [app map Server.handle_all] in *.
  - intros H; injection H as <- <-. auto.
  - apply Forall_cons_iff in Hall as [He Ht]. apply NoDup_cons_iff in Hnd as [Hnotin Hnd']. apply Forall_cons_iff in HF as [Fe Ft].
    destruct (handle_event w e) as [[w2 ys2]|] eqn:Hh; [|discriminate].
    destruct (step w acc e w2 ys2 HP He Fe Hh) as [HP1 Fr].
    apply IH; [exact HP1| |exact Hnd'|exact Ft].
    apply Forall_forall. intros e' Hin. rewrite Forall_forall in Ht. apply Fr; [auto|].
    intros E. apply Hnotin. rewrite <- E. apply in_map. exact Hin.
Qed.
End Batch.

Lemma handle_all_inr : forall es w acc err, handle_all w es acc = inr err ->
  exists pre e post w1 ys1, es = pre ++ e :: post /\ handle_all w pre acc = inl (w1, ys1) /\ handle_event w1 e = inr err.
Proof.
  induction es as [|e t IH]; intros w acc err; cbn [Server.handle_all]; [discriminate|].
  destruct (handle_event w e) as [[w1 ys1]|err'] eqn:Hh.
  - intros H. destruct (IH _ _ _ H) as (pre & e0 & post & w2 & ys2 & -> & Hp & He).
    exists (e :: pre), e0, post, w2, ys2. cbn [app Server.handle_all]. rewrite Hh. auto.
  - intros H; injection H as <-. exists [], e, t, w, acc. auto.
Qed.

(* [toks] are the tokens the application holds, one for each request yielded and not yet answered: a token
   names a live entry and its instance (inv_tok), and the in-flight counter of an entry is the number of tokens of
   its instance (inv_infl); instances are never shared between descriptors (inv_gid_inj). *)
Record Inv (w : world) (toks : list tok) : Prop := {
  inv_nodup : NoDup (map fst (w_conns w));
  inv_cap : (length (w_conns w) <= MAX_CONNECTIONS)%nat;
  inv_gid_lt : forall fd x, alookup fd (w_conns w) = Some x -> (sc_gid x < w_nextg w)%nat;
  inv_gid_inj : forall fd fd' x x', alookup fd (w_conns w) = Some x -> alookup fd' (w_conns w) = Some x' ->
                                    sc_gid x = sc_gid x' -> fd = fd';
  inv_tok : forall fd g, In (fd, g) toks -> exists x, alookup fd (w_conns w) = Some x /\ sc_gid x = g;
  inv_infl : forall fd x, alookup fd (w_conns w) = Some x -> sc_infl x = N.of_nat (count_g (sc_gid x) toks);
  inv_cc : forall fd x, alookup fd (w_conns w) = Some x -> cc_ok x;
}.

Lemma Inv_world0 : Inv world0 [].
Proof using BUF_min BUF_u32. constructor; cbn; try (intros; discriminate); try tauto; [constructor|lia]. Qed.

(* the invariant reads the table and the instance counter only: clients, the backlog, the limit and
   the kill flag are the kernel's and the application's business *)
Lemma Inv_env w toks w' : w_conns w' = w_conns w -> w_nextg w' = w_nextg w -> Inv w toks -> Inv w' toks.
Proof using. intros E1 E2 [A1 A2 A3 A4 A5 A6 A7]. constructor; rewrite ?E1, ?E2; auto. Qed.

(* and of the tokens only which are held and how many per instance, not their order *)
Lemma Inv_toks_ext w a b :
  (forall t, In t b -> In t a) -> (forall g, count_g g b = count_g g a) -> Inv w a -> Inv w b.
Proof using.
  intros Hin Hcnt [A1 A2 A3 A4 A5 A6 A7]. constructor; try assumption.
  - intros fd g H. apply A5, Hin, H.
  - intros fd x HL. rewrite Hcnt. exact (A6 _ _ HL).
Qed.

(* the kernel contract for one event, relative to the current world (K1, K4, K6) *)
Definition evt_ok (w : world) (e : event) : Prop :=
  match e with
  | EvKill => w_killed w = true
  | EvListener nf => alookup nf (w_conns w) = None
  | EvHup fd => exists x, alookup fd (w_conns w) = Some x
  | EvIn fd _ => exists x, alookup fd (w_conns w) = Some x /\ sc_out x = false
  | EvOut fd _ => exists x, alookup fd (w_conns w) = Some x /\ sc_out x = true
  end.

Lemma CInv_set_write c ph rq rb : CInv c ph -> CInv (set_write c rq rb) ph.
Proof using. intros I. apply (CInv_parser_same BUF c _ _ I). repeat split. Qed.

(* the entry at [fd] is replaced by a record of the same instance *)
Lemma inv_update w toks fd x y toks' :
  Inv w toks -> alookup fd (w_conns w) = Some x -> sc_gid y = sc_gid x -> cc_ok y ->
  (forall g, g <> sc_gid x -> count_g g toks' = count_g g toks) ->
  sc_infl y = N.of_nat (count_g (sc_gid x) toks') ->
  (forall fd' g, In (fd', g) toks' -> In (fd', g) toks \/ (fd' = fd /\ g = sc_gid x)) ->
  Inv (set_conn w fd y) toks'.
Proof using.
  intros HI HL Hg Hok Hcnt Hinfl Htok. destruct HI as [Ind Icap Ilt Iinj Itok Iinfl Icc].
  constructor; cbn [set_conn w_conns w_nextg].
  - rewrite keys_update. exact Ind.
  - rewrite <- (map_length fst), keys_update, map_length. exact Icap.
  - intros fd' z Hz. apply alookup_update_cases in Hz. destruct Hz as [(-> & -> & _)|(Hne & Hz)].
    + rewrite Hg. eauto.
    + eauto.
  - intros f1 f2 z1 z2 H1 H2 E.
    apply alookup_update_cases in H1. apply alookup_update_cases in H2.
    destruct H1 as [(-> & -> & _)|(N1 & H1)]; destruct H2 as [(-> & -> & _)|(N2 & H2)]; auto.
    + rewrite Hg in E. eapply Iinj; eauto.
    + rewrite Hg in E. eapply Iinj; eauto.
    + eapply Iinj; eauto.
  - intros fd' g Hin. destruct (Htok _ _ Hin) as [Hold|(-> & ->)].
    + destruct (Itok _ _ Hold) as (z & Hz & Hgz). destruct (Nat.eq_dec fd fd') as [<-|Hne].
      * exists y. split; [eapply alookup_update_same; eauto|]. congruence.
      * exists z. split; [rewrite alookup_update_other by auto; auto|auto].
    + exists y. split; [eapply alookup_update_same; eauto|auto].
  - intros fd' z Hz. apply alookup_update_cases in Hz. destruct Hz as [(-> & -> & _)|(Hne & Hz)].
    + rewrite Hg. exact Hinfl.
    + rewrite (Iinfl _ _ Hz). f_equal. symmetry. apply Hcnt. intros E. apply Hne. eapply Iinj; eauto.
  - intros fd' z Hz. apply alookup_update_cases in Hz. destruct Hz as [(-> & -> & _)|(Hne & Hz)]; eauto.
Qed.

(* the same when the entry yields the requests [rs]: each becomes a token of its instance *)
Lemma inv_update_yield w toks fd x y rs :
  Inv w toks -> alookup fd (w_conns w) = Some x -> sc_gid y = sc_gid x -> cc_ok y ->
  sc_infl y = sc_infl x + N.of_nat (length rs) ->
  Inv (set_conn w fd y) (ytoks (map (fun r => (fd, sc_gid x, r)) rs) ++ toks).
Proof using.
  (* lia would pick up the section's bounds on BUF, which this statement does not need *)
  clear BUF_min BUF_u32.
  intros HI HL Hg Hok Hinfl. apply (inv_update w toks fd x); auto.
  - intros g Hne. rewrite count_g_app, count_g_new. destruct (Nat.eqb_spec (sc_gid x) g); [congruence|reflexivity].
  - rewrite count_g_app, count_g_new, Nat.eqb_refl, Hinfl, (inv_infl _ _ HI _ _ HL). lia.
  - intros fd' g Hin. apply in_app_or in Hin. destruct Hin as [Hin|Hin]; [right|auto].
    unfold ytoks in Hin. rewrite map_map in Hin. apply in_map_iff in Hin. destruct Hin as (r & Hr & _).
    injection Hr as <- <-. auto.
Qed.

(* a new entry under an unused descriptor, with the next instance number and nothing in flight *)
Lemma inv_insert w toks nf x w' :
  Inv w toks -> alookup nf (w_conns w) = None -> length (w_conns w) <> MAX_CONNECTIONS ->
  cc_ok x -> sc_gid x = w_nextg w -> sc_infl x = 0 ->
  w_conns w' = w_conns w ++ [(nf, x)] -> w_nextg w' = S (w_nextg w) -> Inv w' toks.
Proof using.
  clear BUF_min BUF_u32.
  intros [Ind Icap Ilt Iinj Itok Iinfl Icc] Hnf Hcap Hok Hg Hinfl E1 E2.
  assert (Cases : forall fd z, alookup fd (w_conns w ++ [(nf, x)]) = Some z ->
            alookup fd (w_conns w) = Some z \/ (fd = nf /\ z = x)).
  { intros fd z. rewrite alookup_app_end. destruct (alookup fd (w_conns w)); [auto|].
    destruct (Nat.eqb_spec nf fd); [intros H; injection H as <-; auto|discriminate]. }
  constructor; rewrite ?E1, ?E2.
  - rewrite map_app. apply NoDup_app_end; [exact Ind|apply alookup_none_notin; exact Hnf].
  - rewrite app_length. cbn [length]. lia.
  - intros fd z H. destruct (Cases _ _ H) as [H0|[_ Ez]]; [specialize (Ilt _ _ H0)|rewrite Ez]; lia.
  - intros f1 f2 z1 z2 H1 H2 G. destruct (Cases _ _ H1) as [L1|[F1 Z1]]; destruct (Cases _ _ H2) as [L2|[F2 Z2]].
    + eapply Iinj; eauto.
    + rewrite Z2 in G. specialize (Ilt _ _ L1). lia.
    + rewrite Z1 in G. specialize (Ilt _ _ L2). lia.
    + congruence.
  - intros fd g Hin. destruct (Itok _ _ Hin) as (z & Hz & Hgz). exists z. rewrite alookup_app_end, Hz. auto.
  - intros fd z H. destruct (Cases _ _ H) as [H0|[_ Ez]]; [exact (Iinfl _ _ H0)|].
    rewrite Ez, Hinfl, count_g_zero; [reflexivity|]. intros fd0 Hin.
    destruct (Itok _ _ Hin) as (z0 & Hz & Hgz). specialize (Ilt _ _ Hz). lia.
  - intros fd z H. destruct (Cases _ _ H) as [H0|[_ Ez]]; [eauto|rewrite Ez; exact Hok].
Qed.

(* handling one event: it cannot fail except by the u32 overflow of the in-flight counter, it
   keeps the invariant, and new tokens are exactly the yields *)
Theorem handle_ok w toks e :
  Inv w toks -> evt_ok w e -> e <> EvKill ->
  (exists w' ys, handle_event w e = inl (w', ys) /\ Inv w' (ytoks ys ++ toks) /\ w_killed w' = w_killed w
                 /\ w_nextg w <= w_nextg w')%nat
  \/ handle_event w e = inr EOverflow.
Proof using BUF_min BUF_u32.
  intros HI Hev Hk. destruct e as [fd|fd kk|fd kk|nf|]; [| | | |congruence]; cbn [evt_ok] in Hev.
  - (* hang-up: the entry ends Closed with its output dropped *)
    destruct Hev as (x & HL). destruct (inv_cc _ _ HI _ _ HL) as [_ [ph I]].
    cbn [Server.handle_event]. rewrite HL. left. do 2 eexists. split; [reflexivity|].
    split; [|split; [reflexivity|cbn; lia]].
    apply (inv_update_yield w toks fd x _ []); auto; [|cbn; rewrite N.add_0_r; reflexivity].
    split; [exact (pending_clear _)|]. exists ph. apply CInv_set_write, I.
  - destruct Hev as (x & HL & Hout). destruct (inv_cc _ _ HI _ _ HL) as [Hst [ph I]].
    destruct (handle_in w fd kk x ph HL Hst I) as [O|(y & rs & gen & -> & Hg & Hc & Hinfl & _ & _ & _ & Hok & _)]; [right; exact O|left].
    do 2 eexists. split; [reflexivity|]. split; [|split; [reflexivity|cbn; lia]].
    apply (Inv_env (set_conn w fd y)); [reflexivity|reflexivity|]. apply inv_update_yield; auto.
  - destruct Hev as (x & HL & Hout). destruct (inv_cc _ _ HI _ _ HL) as [Hst [ph I]].
    destruct (handle_out w fd kk x HL Hst Hout) as (y & sent & rq & rb & -> & Ec & Hg & Hc & Hinfl & Hsty & _).
    left. do 2 eexists. split; [reflexivity|]. split; [|split; [reflexivity|cbn; lia]].
    apply (Inv_env (set_conn w fd y)); [reflexivity|reflexivity|].
    apply (inv_update_yield w toks fd x y []); auto; [|cbn; rewrite N.add_0_r; exact Hinfl].
    split; [exact Hsty|]. exists ph. rewrite Ec. apply CInv_set_write, I.
  - (* listener: nobody waiting, a refusal, or a new entry *)
    rewrite handle_listen_eq. left. do 2 eexists. split; [reflexivity|].
    destruct (w_backlog w) as [|c rest]; [auto|].
    destruct (Nat.eqb_spec (length (w_conns w)) MAX_CONNECTIONS) as [E|E].
    + split; [apply (Inv_env w); [reflexivity|reflexivity|exact HI]|split; [reflexivity|cbn; lia]].
    + split; [|split; [reflexivity|cbn; lia]].
      apply (inv_insert w toks nf (mkSC (set_payload_max_size conn_new (w_limit w)) AwaitIn 0 c false (w_nextg w))); auto.
      split; [split; reflexivity|]. exists PLine. apply CInv_new; assumption.
Qed.

(* what callers that already know the event succeeded need of it *)
Lemma handle_inv w toks e w' ys :
  Inv w toks -> evt_ok w e -> handle_event w e = inl (w', ys) -> Inv w' (ytoks ys ++ toks) /\ w_killed w' = w_killed w.
Proof using BUF_min BUF_u32.
  intros HI He Hh. destruct (handle_ok w toks e HI He) as [(w2 & ys2 & Hh2 & I2 & K2 & _)|Hov]; [intros ->; discriminate Hh| |congruence].
  rewrite Hh in Hh2. injection Hh2 as <- <-. auto.
Qed.

Lemma sweep_lookup w fd x :
  alookup fd (w_conns (sweep w)) = Some x -> In (fd, x) (w_conns w) /\ is_done x = false.
Proof using.
  intros H. cbn in H. apply alookup_some_in, filter_In in H. destruct H as [Hin Hf]. cbn in Hf.
  split; [exact Hin|]. destruct (is_done x); [discriminate|reflexivity].
Qed.

Lemma alookup_sweep w toks fd x :
  Inv w toks -> alookup fd (w_conns (sweep w)) = Some x -> alookup fd (w_conns w) = Some x.
Proof using. intros HI H. apply alookup_in_nodup; [apply (inv_nodup _ _ HI)|apply (sweep_lookup w fd x H)]. Qed.

Theorem sweep_inv w toks : Inv w toks -> Inv (sweep w) toks.
Proof using BUF_min BUF_u32.
  intros HI. pose proof HI as [Ind Icap Ilt Iinj Itok Iinfl Icc]. pose proof (fun fd x => alookup_sweep w toks fd x HI) as Hsub.
  constructor.
  - cbn. apply nodup_filter_keys; auto.
  - cbn. pose proof (filter_length_le (fun p : nat * sconn => negb (is_done (snd p))) (w_conns w)). lia.
  - intros fd x H. apply Hsub in H. cbn. eauto.
  - intros f1 f2 z1 z2 H1 H2. apply Hsub in H1. apply Hsub in H2. eauto.
  - intros fd g Hin. destruct (Itok _ _ Hin) as (x & HL & Hg). exists x. split; auto.
    cbn. apply alookup_in_nodup; [apply nodup_filter_keys; auto|].
    apply filter_In. split; [apply alookup_some_in; auto|]. cbn.
    (* a connection with an outstanding token is never reaped *)
    unfold is_done. rewrite (Iinfl _ _ HL), Hg.
    pose proof (count_g_pos _ _ _ Hin).
    rewrite (proj2 (N.eqb_neq _ _)), andb_false_r by lia. reflexivity.
  - intros fd x H. apply Hsub in H. eauto.
  - intros fd x H. apply Hsub in H. eauto.
Qed.

(* C09_release: after the sweep no entry is Closed with nothing pending and nothing in flight *)
Theorem sweep_no_done w fd x : alookup fd (w_conns (sweep w)) = Some x -> is_done x = false.
Proof using. intros H. apply (sweep_lookup w fd x H). Qed.

Definition touched (e : event) (fd' : nat) : Prop :=
  match e with EvKill => False | EvListener nf => fd' = nf | EvHup fd | EvIn fd _ | EvOut fd _ => fd' = fd end.

Lemma touched_cases e fd : touched e fd -> ev_key e = KConn fd \/ e = EvListener fd.
Proof using. destruct e; cbn; intros H; auto. destruct H. Qed.

(* C09_noninterference: handling an event leaves every other connection untouched *)
Lemma handle_frame w e w' ys :
  handle_event w e = inl (w', ys) ->
  w_killed w' = w_killed w /\ forall fd', ~ touched e fd' -> alookup fd' (w_conns w') = alookup fd' (w_conns w).
Proof using.
  intros H. destruct (handle_event_cases w e w' ys H) as [(fd & K & x & y & cl' & rs & _ & _ & -> & _)|(nf & -> & _ & ->)].
  - split; [reflexivity|]. intros fd' Hn. cbn [set_client set_conn w_conns]. rewrite alookup_aupdate.
    destruct (Nat.eqb_spec fd fd') as [<-|]; [|reflexivity]. destruct Hn. destruct e; injection K as <- || discriminate K; reflexivity.
  - destruct (w_backlog w); [auto|]. destruct (Nat.eqb _ _); cbn; split; auto.
    intros fd' Hn. rewrite alookup_app_end. destruct (alookup fd' (w_conns w)); [reflexivity|].
    destruct (Nat.eqb_spec nf fd'); [congruence|reflexivity].
Qed.

(* an event with another key also leaves the record of the client of the entry at [fd] alone, if no other entry
   has that client and it is not the waiting client the listener would take *)
Lemma other_key_frame w e w' ys fd x :
  handle_event w e = inl (w', ys) -> alookup fd (w_conns w) = Some x -> ev_key e <> KConn fd ->
  (forall fd0 x0, alookup fd0 (w_conns w) = Some x0 -> sc_client x0 = sc_client x -> fd0 = fd) ->
  (forall c rest, w_backlog w = c :: rest -> c <> sc_client x) ->
  alookup fd (w_conns w') = Some x /\ client_of w' (sc_client x) = client_of w (sc_client x).
Proof using.
  intros H HL Hk Hone Hwait.
  destruct (handle_event_cases w e w' ys H) as [(fd0 & K & x0 & y & cl' & rs & HL0 & _ & -> & _)|(nf & -> & _ & ->)].
  - assert (Hne : fd0 <> fd) by congruence. split.
    + cbn [set_client set_conn w_conns]. rewrite alookup_update_other by exact Hne. exact HL.
    + rewrite client_of_set_client. destruct (Nat.eqb_spec (sc_client x0) (sc_client x)) as [E|]; [|reflexivity].
      destruct (Hne (Hone _ _ HL0 E)).
  - destruct (w_backlog w) as [|c rest] eqn:Bk; [auto|].
    assert (Hc : Nat.eqb c (sc_client x) = false) by (apply Nat.eqb_neq; exact (Hwait c rest eq_refl)).
    unfold client_of. destruct (Nat.eqb (length (w_conns w)) MAX_CONNECTIONS); cbn [refused_world accepted_world w_conns w_clients];
      rewrite alookup_aupdate, Hc, ?alookup_app_end, ?HL; auto.
Qed.

Lemma evt_ok_conn w e fd : evt_ok w e -> ev_key e = KConn fd -> exists x, alookup fd (w_conns w) = Some x.
Proof using. destruct e; try discriminate; intros (x & H) [= <-]; exists x; apply H. Qed.

Lemma evt_ok_frame w e w' ys e' :
  evt_ok w e -> handle_event w e = inl (w', ys) -> evt_ok w e' -> ev_key e' <> ev_key e ->
  (forall nf nf', e = EvListener nf -> e' = EvListener nf' -> False) -> evt_ok w' e'.
Proof using.
  intros Hev H Hev' Hk _. destruct (handle_frame _ _ _ _ H) as [Hkill Hfr].
  assert (Keep : forall fd, ev_key e <> KConn fd -> e <> EvListener fd -> alookup fd (w_conns w') = alookup fd (w_conns w)).
  { intros fd N1 N2. apply Hfr. intros T. destruct (touched_cases e fd T); auto. }
  (* the contract says of the descriptor an event is about whether it is in the table, so [e] is about another *)
  destruct e' as [fd'|fd' kk'|fd' kk'|nf'|]; cbn [evt_ok]; [| | | |cbn in Hev'; congruence].
  1-3: rewrite Keep; [exact Hev'|exact (not_eq_sym Hk)|]; intros ->;
    destruct (evt_ok_conn w _ fd' Hev' eq_refl) as (x & Hx); cbn in Hev; congruence.
  rewrite Keep; [exact Hev'| |intros ->; exact (Hk eq_refl)].
  intros K. destruct (evt_ok_conn w e nf' Hev K) as (x & Hx). cbn in Hev'. congruence.
Qed.

(* A batch under the kernel contract, in any order of its events: it runs to the end and keeps the
   invariant, or stops at the kill event, or at the u32 overflow of an in-flight counter. *)
Theorem batch_outcome es w toks :
  Inv w toks -> Forall (evt_ok w) es -> NoDup (map ev_key es) ->
  match handle_all w es [] with
  | inl (w', ys) => Inv w' (ytoks ys ++ toks) /\ w_killed w' = w_killed w
  | inr err => err = EOverflow \/ (err = EShutdown /\ In EvKill es)
  end.
Proof using BUF_min BUF_u32.
  intros HI Hall Hnd.
  set (P := fun w' ys => Inv w' (ytoks ys ++ toks) /\ w_killed w' = w_killed w).
  assert (Step : forall w0 ys0 e w' ys, P w0 ys0 -> evt_ok w0 e -> True -> handle_event w0 e = inl (w', ys) ->
            P w' (ys0 ++ ys) /\ forall e', evt_ok w0 e' -> ev_key e' <> ev_key e -> evt_ok w' e').
  { intros w0 ys0 e w' ys [I0 K0] He _ Hh. split.
    - destruct (handle_inv w0 _ e w' ys I0 He Hh) as [I2 K2]. split; [|congruence].
      refine (Inv_toks_ext _ _ _ _ _ I2); [intros t; rewrite ytoks_app, !in_app_iff; tauto|intros g; rewrite ytoks_app, !count_g_app; lia].
    - intros e' He' Hk. apply (evt_ok_frame w0 e w' ys e' He Hh He' Hk). intros nf nf' -> ->. apply Hk. reflexivity. }
  assert (AllT : forall l : list event, Forall (fun _ => True) l) by (intros l; apply Forall_forall; auto).
  destruct (handle_all w es []) as [[w' ys]|err] eqn:Hh.
  - rewrite <- (app_nil_r es) in Hall, Hnd. exact (proj1 (batch_prefix evt_ok _ P Step es [] w [] w' ys (conj HI eq_refl) Hall Hnd (AllT es) Hh)).
  - destruct (handle_all_inr _ _ _ _ Hh) as (pre & e & post & w1 & ys1 & -> & Hp & He).
    destruct (batch_prefix evt_ok _ P Step pre (e :: post) w [] w1 ys1 (conj HI eq_refl) Hall Hnd (AllT pre) Hp) as [[I1 _] Hq].
    apply Forall_inv in Hq as He1.
    assert (D : e = EvKill \/ e <> EvKill) by (destruct e; auto; right; discriminate).
    destruct D as [->|Hne].
    + injection He as <-. right. split; [reflexivity|apply in_elt].
    + left. destruct (handle_ok w1 _ e I1 He1 Hne) as [(w2 & ys2 & E & _)|E]; congruence.
Qed.

Theorem batch_ok : forall es w toks acc,
  Inv w toks -> Forall (evt_ok w) es -> NoDup (map ev_key es) -> ~ In KKill (map ev_key es) ->
  (exists w' ys, handle_all w es acc = inl (w', acc ++ ys) /\ Inv w' (ytoks ys ++ toks) /\ w_killed w' = w_killed w)
  \/ handle_all w es acc = inr EOverflow.
Proof using BUF_min BUF_u32.
  intros es w toks acc HI Hall Hnd Hnk. rewrite handle_all_acc.
  pose proof (batch_outcome es w toks HI Hall Hnd) as O.
  destruct (handle_all w es []) as [[w' ys]|err]; [left; exists w', ys; tauto|right].
  destruct O as [->|[_ Hin]]; [reflexivity|]. destruct Hnk. apply (in_map ev_key _ _ Hin).
Qed.

(* C09_poll_total: for every order of the ready events, the polling function returns normally
   (a yield), never InvalidWrite, never a panic at get_mut(..).unwrap(); the only other outcome is
   the u32 overflow of one connection's in-flight counter (2^32 unanswered requests) *)
Theorem poll_total w toks es :
  Inv w toks -> Forall (evt_ok w) es -> NoDup (map ev_key es) -> ~ In KKill (map ev_key es) -> es <> [] ->
  (exists w' ys, poll_with w es = PYield w' ys /\ Inv w' (ytoks ys ++ toks))
  \/ poll_with w es = Server.PErr EOverflow.
Proof using BUF_min BUF_u32.
  intros HI Hall Hnd Hnk Hne. unfold Server.poll_with. destruct es as [|e t]; [congruence|].
  destruct (batch_ok (e :: t) w toks [] HI Hall Hnd Hnk) as [(w1 & ys & H & I1 & _)|Hov].
  - left. rewrite H. cbn [app]. do 2 eexists. split; [reflexivity|]. apply sweep_inv. exact I1.
  - right. rewrite Hov. reflexivity.
Qed.

(* C18_wins: once the kill switch is signalled its event is in the batch (K4, K6); whatever is
   handled before it, in whatever order, the poll reports the shutdown *)
Theorem poll_kill : forall es w toks acc,
  Inv w toks -> Forall (evt_ok w) es -> NoDup (map ev_key es) -> In EvKill es ->
  handle_all w es acc = inr EShutdown \/ handle_all w es acc = inr EOverflow.
Proof using BUF_min BUF_u32.
  intros es w toks acc HI Hall Hnd Hin. rewrite handle_all_acc.
  pose proof (batch_outcome es w toks HI Hall Hnd) as O.
  destruct (handle_all w es []) as [[w' ys]|err] eqn:Hh.
  - (* the batch cannot get past the kill event *)
    exfalso. apply in_split in Hin. destruct Hin as (pre & post & ->). rewrite handle_all_app in Hh.
    destruct (handle_all w pre []) as [[w1 ys1]|]; discriminate Hh.
  - destruct O as [->|[-> _]]; auto.
Qed.

Lemma count_g_remove g t1 t2 fd g' :
  count_g g (t1 ++ (fd, g') :: t2) = (count_g g (t1 ++ t2) + if Nat.eqb g' g then 1 else 0)%nat.
Proof using.
  clear BUF_min BUF_u32.
  rewrite !count_g_app. unfold count_g at 2. cbn [filter snd]. destruct (Nat.eqb g' g); cbn [length]; unfold count_g; lia.
Qed.

(* answering an outstanding token (fd, g): the call succeeds, only the connection at fd changes,
   and it is still the instance g that yielded the request -- even if the client has gone *)
Theorem respond_ok w t1 t2 fd g r :
  Inv w (t1 ++ (fd, g) :: t2) ->
  exists w' x, respond w fd r = inl w' /\ Inv w' (t1 ++ t2) /\
    alookup fd (w_conns w) = Some x /\ sc_gid x = g /\
    (forall fd', fd' <> fd -> alookup fd' (w_conns w') = alookup fd' (w_conns w)) /\
    w_clients w' = w_clients w.
Proof using BUF_min BUF_u32.
  intros HI. destruct (inv_tok _ _ HI fd g) as (x & HL & Hg); [apply in_elt|].
  destruct (inv_cc _ _ HI _ _ HL) as [Hst [ph I]].
  pose proof (inv_infl _ _ HI _ _ HL) as Hinfl. rewrite Hg, count_g_remove, Nat.eqb_refl in Hinfl.
  rewrite respond_eq, HL. replace (sc_infl x =? 0) with false by (symmetry; apply N.eqb_neq; lia).
  exists (set_conn w fd (answered x r)), x.
  split; [reflexivity|]. split; [|split; [reflexivity|split; [exact Hg|split; [|reflexivity]]]].
  - apply (inv_update w _ fd x _ _ HI HL); [reflexivity| | | |].
    + split.
      * unfold st_ok, answered in *. destruct (sc_st x); cbn; [split; [reflexivity|apply pending_enqueue]|split; [tauto|apply pending_enqueue]|exact Hst].
      * exists ph. unfold answered. cbn [sc_conn]. destruct (sc_st x); try apply CInv_set_write; exact I.
    + intros g0 Hne. rewrite count_g_remove. destruct (Nat.eqb_spec g g0); [congruence|lia].
    + cbn [answered sc_infl]. rewrite Hg. lia.
    + intros fd' g0 Hin. left. rewrite in_app_iff in *. cbn [In]. tauto.
  - intros fd' Hne. apply alookup_update_other. congruence.
Qed.

Lemma st_ok_mid x : st_ok x -> st_mid x.
Proof. unfold st_mid, st_ok. destruct (sc_st x); tauto. Qed.

(* The loop of flush_outgoing_writes on one entry.  The last clause is its termination: while the client
   receives, every write takes a whole buffer, so the loop stops with output pending only for want of fuel. *)
Lemma flush_conn_spec : forall fuel x b sent0, st_mid x ->
  exists y s, flush_conn fuel x b sent0 = (y, sent0 ++ s) /\
    same_peer x y /\ sc_infl y = sc_infl x /\ sc_out y = sc_out x /\ st_mid y /\ (sc_st x <> AwaitOut -> y = x) /\
    (exists rq rb, sc_conn y = set_write (sc_conn x) rq rb) /\
    (c_rbuf (sc_conn x) <> Some [] -> drained b x y s /\
       (b = true -> sc_st y = AwaitOut -> (writes_needed (sc_conn y) + fuel <= writes_needed (sc_conn x))%nat)).
Proof using.
  clear BUF_min BUF_u32.
  induction fuel as [|f IH]; intros x b sent0 Hm; cbn [flush_conn]; [|destruct (sc_st x) eqn:S0].
  (* no write is attempted *)
  1, 2, 4: exists x, []; rewrite app_nil_r; split; [reflexivity|]; split; [split; reflexivity|]; do 2 (split; [reflexivity|]);
    split; [exact Hm|]; split; [auto|]; split; [do 2 eexists; apply set_write_same|]; intros Hrb;
    (split; [repeat split; auto; intros; congruence|intros _ S1; lia || congruence]).
  unfold st_mid in Hm. rewrite S0 in Hm.
  destruct (cc_write_spec x b 0 S0 Hm) as (y1 & s1 & rq & rb & -> & Ec & Eg & Ecl & Ei & Eo & Hm1 & D1 & W).
  destruct (IH y1 b (sent0 ++ s1) Hm1) as (y & s & -> & [Hg Hc] & Hi & Ho & Hmy & Hsame & (rq' & rb' & Ec') & D).
  exists y, (s1 ++ s). rewrite app_assoc. split; [reflexivity|]. split; [split; congruence|]. do 2 (split; [congruence|]).
  split; [exact Hmy|]. split; [intros N; destruct (N eq_refl)|]. split; [exists rq', rb'; rewrite Ec', Ec; reflexivity|].
  intros Hrb. destruct (D1 Hrb) as [Dx _]. destruct (D (proj1 Dx)) as [Dy Hfuel].
  split; [exact (drained_trans _ _ _ _ _ _ Dx Dy)|]. intros Hb Sy'. specialize (Hfuel Hb Sy').
  (* had the write closed the entry, the loop would have stopped there *)
  assert (Hopen : sc_st y1 <> SClosed) by (intros Sy; rewrite Hsame in Sy' by congruence; congruence).
  specialize (W eq_refl Hopen). lia.
Qed.

Lemma flush_one_inv w toks fd x :
  Inv w toks -> alookup fd (w_conns w) = Some x -> Inv (flush_one w (fd, x)) toks.
Proof using.
  intros HI HL. unfold flush_one.
  destruct (inv_cc _ _ HI _ _ HL) as [Hst [ph I]].
  destruct (flush_conn_spec (S (S (length (c_rq (sc_conn x))))) x (k_can_receive (client_of w (sc_client x))) [] (st_ok_mid x Hst))
    as (y & sent & -> & [Hg Hc] & Hi & Ho & Hmid & Hsame & (rq & rb & Ec) & _).
  eapply (Inv_env (set_conn w fd _)); [reflexivity|reflexivity|].
  apply (inv_update_yield w toks fd x _ []); auto.
  - destruct (sstate_eqb (sc_st x) AwaitOut && sstate_eqb (sc_st y) AwaitIn); cbn; auto.
  - split.
    + unfold st_ok, st_mid in *. destruct (sc_st x) eqn:Sx; cbn [sstate_eqb andb]; try (rewrite Hsame by discriminate; rewrite Sx; exact Hst).
      destruct (sc_st y) eqn:Sy; cbn [sstate_eqb sc_st sc_out sc_conn]; rewrite ?Sy; [tauto| |exact Hmid].
      split; [rewrite Ho; tauto|exact Hmid].
    + exists ph. destruct (sstate_eqb (sc_st x) AwaitOut && sstate_eqb (sc_st y) AwaitIn); cbn [sc_conn]; rewrite Ec;
        apply CInv_set_write, I.
  - cbn [length]. rewrite N.add_0_r, <- Hi. destruct (sstate_eqb (sc_st x) AwaitOut && sstate_eqb (sc_st y) AwaitIn); reflexivity.
Qed.

Lemma flush_one_other w fd x fd' :
  fd' <> fd -> alookup fd' (w_conns (flush_one w (fd, x))) = alookup fd' (w_conns w).
Proof using.
  intros Hne. unfold flush_one. destruct (flush_conn _ x _ []) as [y sent].
  apply alookup_update_other. congruence.
Qed.

(* flush_outgoing_writes visits every entry of the table once, each as the table showed it at the
   start.  [P l w0] is what holds when the entries [l] are still to be visited. *)
Lemma flush_fold (P : list (nat * sconn) -> world -> Prop) w :
  NoDup (map fst (w_conns w)) ->
  (forall fd x l w0, P ((fd, x) :: l) w0 -> alookup fd (w_conns w0) = Some x -> ~ In fd (map fst l) ->
                     P l (flush_one w0 (fd, x))) ->
  P (w_conns w) w -> P [] (flush w).
Proof using.
  intros Hnd Step. unfold flush.
  assert (G : forall l w0, NoDup (map fst l) -> (forall p, In p l -> alookup (fst p) (w_conns w0) = Some (snd p)) ->
              P l w0 -> P [] (fold_left flush_one l w0)).
  { induction l as [|[fd x] l IH]; intros w0 Hl Hin HP; cbn [fold_left]; [exact HP|].
    apply NoDup_cons_iff in Hl as [Hnot Hl']. apply IH; [exact Hl'| |].
    - intros [fd' x'] Hp. cbn [fst snd]. rewrite flush_one_other; [apply (Hin (fd', x')); right; exact Hp|].
      intros ->. apply Hnot. apply (in_map fst _ _ Hp).
    - apply Step; [exact HP|apply (Hin (fd, x)); left; reflexivity|exact Hnot]. }
  apply G; [exact Hnd|].
  intros [fd x] Hin. apply alookup_in_nodup; assumption.
Qed.

Theorem flush_inv w toks : Inv w toks -> Inv (flush w) toks.
Proof using BUF_min BUF_u32.
  intros HI. apply (flush_fold (fun _ w0 => Inv w0 toks)); [apply (inv_nodup _ _ HI)| |exact HI].
  intros fd x l w0 I0 HL _. apply flush_one_inv; assumption.
Qed.

Definition quiet_conn (w : world) (x : sconn) : Prop :=
  sc_st x = AwaitIn /\ k_hup (client_of w (sc_client x)) = false /\ k_tosrv (client_of w (sc_client x)) = [].

(* what epoll reports for one entry: a hang-up before anything else, otherwise what the registered
   interest asks for *)
Lemma conn_event_cases w g x e : conn_event w g x = Some e ->
  (e = EvHup g /\ k_hup (client_of w (sc_client x)) = true) \/
  (e = EvOut g 0 /\ k_hup (client_of w (sc_client x)) = false /\ sc_out x = true) \/
  (e = EvIn g 0 /\ k_hup (client_of w (sc_client x)) = false /\ sc_out x = false /\
   k_tosrv (client_of w (sc_client x)) <> []).
Proof using.
  unfold conn_event. destruct (k_hup _); [intros H; injection H as <-; auto|].
  destruct (sc_out x); [intros H; injection H as <-; auto|].
  destruct (k_tosrv _); [discriminate|]. intros H; injection H as <-. right. right. repeat split. discriminate.
Qed.

Lemma conn_event_key w g x e : conn_event w g x = Some e -> ev_key e = KConn g.
Proof using. intros H. destruct (conn_event_cases w g x e H) as [[-> _]|[[-> _]|[-> _]]]; reflexivity. Qed.

Lemma in_opt {A} (o : option A) a : In a match o with Some a0 => [a0] | None => [] end <-> o = Some a.
Proof using. destruct o; cbn; intuition congruence. Qed.

Lemma In_ready_events w e :
  In e (ready_events w) <->
  (e = EvKill /\ w_killed w = true) \/
  (exists fd x, In (fd, x) (w_conns w) /\ conn_event w fd x = Some e) \/
  (e = EvListener (fresh_fd w) /\ w_backlog w <> []).
Proof using.
  unfold ready_events. rewrite !in_app_iff, in_flat_map.
  assert (A : In e (if w_killed w then [EvKill] else []) <-> e = EvKill /\ w_killed w = true)
    by (destruct (w_killed w); cbn; intuition congruence).
  assert (C : In e match w_backlog w with [] => [] | _ :: _ => [EvListener (fresh_fd w)] end <->
              e = EvListener (fresh_fd w) /\ w_backlog w <> [])
    by (destruct (w_backlog w); cbn; intuition congruence).
  rewrite A, C. apply or_iff_compat_l, or_iff_compat_r. split.
  - intros ([fd x] & Hin & H%in_opt). eauto.
  - intros (fd & x & Hin & Ce). exists (fd, x). split; [exact Hin|apply in_opt, Ce].
Qed.

Lemma ready_events_nil w :
  ready_events w = [] <->
  w_killed w = false /\ w_backlog w = [] /\ forall fd x, In (fd, x) (w_conns w) -> conn_event w fd x = None.
Proof using.
  split.
  - intros E. assert (N : forall e, ~ In e (ready_events w)) by (rewrite E; auto). clear E.
    setoid_rewrite In_ready_events in N. split; [|split].
    + destruct (w_killed w); [destruct (N EvKill); auto|reflexivity].
    + destruct (w_backlog w); [reflexivity|]. destruct (N (EvListener (fresh_fd w))). right. right. split; [reflexivity|discriminate].
    + intros fd x Hin. destruct (conn_event w fd x) as [e|] eqn:Ce; [|reflexivity]. destruct (N e). eauto 6.
  - intros (K & Bk & C). destruct (ready_events w) as [|e t] eqn:E; [reflexivity|].
    assert (Hin : In e (ready_events w)) by (rewrite E; left; reflexivity).
    apply In_ready_events in Hin. destruct Hin as [[_ K']|[(fd & x & Hin & Ce)|[_ Bk']]]; [congruence| |congruence].
    rewrite (C _ _ Hin) in Ce. discriminate.
Qed.

(* once no client input, no unsent output and no waiting client remains -- answered or not --
   nothing is ready: the epoll descriptor stops signalling *)
Theorem no_spin w toks :
  Inv w toks -> w_killed w = false -> w_backlog w = [] ->
  (forall fd x, In (fd, x) (w_conns w) -> quiet_conn w x) -> ready_events w = [].
Proof using.
  intros HI Hk Hb Hq. apply ready_events_nil. split; [exact Hk|split; [exact Hb|]].
  intros fd x Hin. destruct (Hq fd x Hin) as (S0 & Hh & Ht).
  destruct (inv_cc _ _ HI fd x (alookup_in_nodup _ _ _ (inv_nodup _ _ HI) Hin)) as [Hst _].
  unfold st_ok in Hst. rewrite S0 in Hst. destruct Hst as [Ho _].
  unfold conn_event. rewrite Hh, Ho, Ht. reflexivity.
Qed.

(* no lost wake-up: unread client bytes on a connection awaiting input, unsent output, a hang-up,
   a waiting client or a signalled kill switch each make the poll enabled (the last two: backlog_wakes, kill_wakes) *)
Theorem no_lost_wakeup w toks fd x :
  Inv w toks -> In (fd, x) (w_conns w) ->
  (k_hup (client_of w (sc_client x)) = true \/ sc_st x = AwaitOut \/
   (sc_st x = AwaitIn /\ k_tosrv (client_of w (sc_client x)) <> [])) ->
  ready_events w <> [].
Proof using.
  intros HI Hin Hc E. apply ready_events_nil in E. destruct E as (_ & _ & N). specialize (N fd x Hin).
  destruct (inv_cc _ _ HI fd x (alookup_in_nodup _ _ _ (inv_nodup _ _ HI) Hin)) as [Hst _].
  unfold conn_event in N. unfold st_ok in Hst.
  destruct (k_hup (client_of w (sc_client x))); [discriminate|].
  destruct Hc as [Hc|[Hc|[Hc Hne]]]; [discriminate| |]; rewrite Hc in Hst; destruct Hst as [Ho _]; rewrite Ho in N; [discriminate|].
  destruct (k_tosrv (client_of w (sc_client x))); [congruence|discriminate].
Qed.

Theorem backlog_wakes w : w_backlog w <> [] -> ready_events w <> [].
Proof using. intros Hb E. apply ready_events_nil in E. tauto. Qed.

Theorem kill_wakes w : w_killed w = true -> In EvKill (ready_events w).
Proof using. intros Hk. apply In_ready_events. auto. Qed.

Theorem kill_inert w : w_killed w = false -> ~ In EvKill (ready_events w).
Proof using.
  intros Hk Hin. apply In_ready_events in Hin. destruct Hin as [[_ K]|[(fd & x & _ & Ce)|[E _]]]; [congruence| |discriminate].
  apply conn_event_key in Ce. discriminate.
Qed.

Lemma no_kill_key w : w_killed w = false -> ~ In KKill (map ev_key (ready_events w)).
Proof.
  intros Hk Hin. apply in_map_iff in Hin. destruct Hin as (e & He & Hin). destruct e; try discriminate.
  exact (kill_inert w Hk Hin).
Qed.

(* C10: the oldest waiting client is refused exactly when the table is full; both outcomes, spelled out *)
Theorem refuse_iff w nf c rest :
  w_backlog w = c :: rest ->
  exists w', handle_event w (EvListener nf) = inl (w', []) /\ w_backlog w' = rest /\
    if Nat.eqb (length (w_conns w)) MAX_CONNECTIONS
    then (* refused: no entry changes; the client gets exactly the fixed message, if it can
            still receive, and the server's end is closed *)
         w_conns w' = w_conns w /\
         (exists cl', alookup c (w_clients w') = alookup c (aupdate c cl' (w_clients w)) /\ k_place cl' = Gone /\
            k_rx cl' = if k_can_receive (client_of w c) then k_rx (client_of w c) ++ SERVER_FULL_ERROR_MESSAGE
                       else k_rx (client_of w c))
    else exists x, w_conns w' = w_conns w ++ [(nf, x)] /\ sc_st x = AwaitIn /\ sc_infl x = 0 /\
                   c_pmax (sc_conn x) = w_limit w /\ sc_client x = c.
Proof using.
  intros Hb. rewrite handle_listen_eq, Hb. eexists. split; [reflexivity|].
  destruct (Nat.eqb (length (w_conns w)) MAX_CONNECTIONS); cbn [refused_world accepted_world w_backlog w_conns w_clients].
  - split; [reflexivity|]. split; [reflexivity|]. eexists. split; [reflexivity|]. split; reflexivity.
  - split; [reflexivity|]. eexists. split; [reflexivity|]. cbn. auto.
Qed.

Lemma fresh_fd_unused w : alookup (fresh_fd w) (w_conns w) = None.
Proof using.
  destruct (alookup (fresh_fd w) (w_conns w)) as [x|] eqn:E; [|reflexivity].
  apply alookup_some_in, (in_map fst) in E. cbn [fst] in E.
  pose proof (proj1 (list_max_le (map fst (w_conns w)) _) (le_n _)) as M. rewrite Forall_forall in M.
  apply M in E. unfold fresh_fd, list_max in E. destruct (Nat.nle_succ_diag_l _ E).
Qed.

Lemma conn_events_keys w l k :
  In k (map ev_key (flat_map (fun p => match conn_event w (fst p) (snd p) with Some e => [e] | None => [] end) l)) ->
  exists fd, k = KConn fd /\ In fd (map fst l).
Proof using.
  intros Hin. apply in_map_iff in Hin. destruct Hin as (e & <- & Hin). apply in_flat_map in Hin.
  destruct Hin as ([fd x] & Hp & He%in_opt). exists fd. split; [exact (conn_event_key _ _ _ _ He)|apply (in_map fst _ _ Hp)].
Qed.

Lemma conn_events_nodup w : forall l, NoDup (map fst l) ->
  NoDup (map ev_key (flat_map (fun p => match conn_event w (fst p) (snd p) with Some e => [e] | None => [] end) l)).
Proof using.
  induction l as [|[fd x] l IH]; intros Hnd; cbn [flat_map]; [constructor|].
  apply NoDup_cons_iff in Hnd as [Hnot Hnd']. cbn [fst snd].
  destruct (conn_event w fd x) as [e|] eqn:Ce; cbn [app map]; [|auto].
  constructor; [|auto]. intros Hin. destruct (conn_events_keys w l _ Hin) as (fd' & K & Hfd).
  rewrite (conn_event_key _ _ _ _ Ce) in K. injection K as <-. exact (Hnot Hfd).
Qed.

(* the canonical batch of the executable poll satisfies the kernel contract *)
Theorem ready_events_ok w toks : Inv w toks ->
  Forall (evt_ok w) (ready_events w) /\ NoDup (map ev_key (ready_events w)).
Proof using BUF_min BUF_u32.
  intros HI. split.
  - apply Forall_forall. intros e Hin. apply In_ready_events in Hin.
    destruct Hin as [[-> K]|[(fd & x & Hin & Ce)|[-> _]]]; [exact K| |apply fresh_fd_unused].
    pose proof (alookup_in_nodup _ _ _ (inv_nodup _ _ HI) Hin) as HL.
    destruct (conn_event_cases w fd x e Ce) as [[-> _]|[(-> & _ & Ho)|(-> & _ & Ho & _)]]; cbn; eauto.
  - unfold ready_events. rewrite !map_app.
    set (ks := map ev_key (flat_map _ (w_conns w))).
    assert (Ks : forall k, In k ks -> exists fd, k = KConn fd) by (intros k Hk; destruct (conn_events_keys w _ k Hk) as (fd & -> & _); eauto).
    assert (N : NoDup (ks ++ map ev_key match w_backlog w with [] => [] | _ :: _ => [EvListener (fresh_fd w)] end)).
    { destruct (w_backlog w); cbn [map]; [rewrite app_nil_r|apply NoDup_app_end]; try apply conn_events_nodup, (inv_nodup _ _ HI).
      intros Hin. destruct (Ks _ Hin) as (fd & K). discriminate K. }
    destruct (w_killed w); cbn [map app]; [|exact N]. constructor; [|exact N].
    intros Hin. apply in_app_or in Hin. destruct Hin as [Hin|Hin]; [destruct (Ks _ Hin) as (fd & K); discriminate K|].
    destruct (w_backlog w); cbn in Hin; [destruct Hin|destruct Hin as [K|[]]; discriminate K].
Qed.

(* the executable poll (canonical event order): blocked, a yield that keeps the invariant,
   the shutdown indication, or the u32 overflow *)
Theorem poll_outcomes w toks : Inv w toks ->
  match poll BUF w with
  | PBlocked => ready_events w = []
  | PYield w' ys => Inv w' (ytoks ys ++ toks) /\ w_killed w = false
  | Server.PErr e => (e = EShutdown /\ w_killed w = true) \/ e = EOverflow
  end.
Proof using BUF_min BUF_u32.
  intros HI. unfold poll. destruct (ready_events_ok w toks HI) as [A1 A2].
  destruct (w_killed w) eqn:Hk.
  - unfold ready_events. rewrite Hk. cbn. left. auto.
  - pose proof (no_kill_key w Hk) as Hnk.
    destruct (ready_events w) as [|e t] eqn:E; [reflexivity|].
    destruct (poll_total w toks (e :: t) HI A1 A2 Hnk ltac:(discriminate)) as [(w' & ys & P & I')|P]; rewrite P; auto.
Qed.

End Srv.
