(* The "only if" direction of the request grammar (C02): if the whole-stream parser delivers a
   request first, the stream starts with a well-formed encoding of exactly that request. *)
From MH Require Export proofs.Grammar_proofs.

Section Conv.
Variable BUF : nat.
Hypothesis BUF_min : (2 <= BUF)%nat.
Variable L : N.
Notation runT := (runT BUF L).
Notation line_ok := (line_ok BUF).

Definition outs_of (r : rres) : list out :=
  match r with RMore _ _ o => o | RErr o _ => o | ROutOfFuel => [] end.

(* the first request among the outputs (interim responses skipped) *)
Fixpoint first_req (o : list out) : option (request_line * headers * option bytes) :=
  match o with
  | [] => None
  | ORequest rl h b :: _ => Some (rl, h, b)
  | OContinue _ :: r => first_req r
  end.

Lemma outs_acc ph w acc : outs_of (runT ph w acc) = acc ++ outs_of (runT ph w []).
Proof.
  rewrite (runT_acc BUF L ph w acc).
  destruct (ConnSpec.runT BUF L ph w []) eqn:E; cbn; rewrite ?app_nil_r; try reflexivity.
  exfalso. exact (runT_not_out_of_fuel BUF L ph w [] E).
Qed.

(* waiting for the body: the request delivered next is this one, with the next `left` bytes *)
Lemma body_phase_inv rl h acc lft w x :
  first_req (outs_of (runT (PBody rl h acc lft) w [])) = Some x ->
  exists chunk rest, w = chunk ++ rest /\ lenN chunk = lft /\ x = (rl, h, Some (acc ++ chunk)).
Proof.
  rewrite runT_unfold. cbn [ConnSpec.step].
  destruct (lft <=? lenN w) eqn:Le.
  - apply N.leb_le in Le. rewrite outs_acc. cbn [app first_req]. intros H; inversion H; subst.
    exists (firstn (N.to_nat lft) w), (skipn (N.to_nat lft) w).
    split; [symmetry; apply firstn_skipn|]. split; [|reflexivity].
    unfold lenN in *. rewrite firstn_length. lia.
  - cbn. discriminate.
Qed.

(* waiting for headers: the window splits into header lines that are accepted and a remainder at which
   the header phase stops -- a blank line, a rejected or over-long line, or an incomplete one *)
Lemma hdr_split rl w : forall h, exists hs h' r,
  w = Grammar_proofs.with_crlf hs ++ r /\ Forall (fun l => l <> [] /\ line_ok l) hs /\
  fold_lines h hs = Ok h' /\ (forall acc, runT (PHdr rl h) w acc = runT (PHdr rl h') r acc) /\
  match take_line BUF r with
  | LLine (c :: l) _ => exists e, parse_header_tolerant h' (c :: l) = Err e
  | _ => True
  end.
Proof.
  induction w as [w IH] using (induction_ltof1 _ (@length N)). unfold ltof in IH. intros h.
  destruct (take_line BUF w) as [[|c l] r| |] eqn:T.
  1, 3, 4: exists [], h, w; rewrite T; repeat split; auto.
  destruct (parse_header_tolerant h (c :: l)) as [h1|e] eqn:P; [|exists [], h, w; rewrite T; repeat split; eauto].
  destruct (take_line_inv BUF w _ r T) as (-> & Hnc & Hfit).
  destruct (IH r ltac:(rewrite !app_length; cbn; lia) h1) as (hs & h' & r' & -> & Hall & Hf & Hrun & Hstop).
  exists ((c :: l) :: hs), h', r'. cbn [Grammar_proofs.with_crlf flat_map fold_lines]. rewrite P, <- !app_assoc.
  split; [reflexivity|]. split; [constructor; [split; [discriminate|split; assumption]|exact Hall]|].
  split; [exact Hf|]. split; [|exact Hstop].
  intros acc. rewrite runT_unfold. cbn [ConnSpec.step]. rewrite T, P, app_nil_r. apply Hrun.
Qed.

Lemma hdr_phase_inv rl h w x :
  first_req (outs_of (runT (PHdr rl h) w [])) = Some x ->
  exists hs hd body rest,
    w = Grammar_proofs.with_crlf hs ++ CRLF ++ body ++ rest /\
    Forall (fun l => l <> [] /\ line_ok l) hs /\ fold_lines h hs = Ok hd /\
    h_content_length hd <= L /\ lenN body = h_content_length hd /\
    x = (rl, hd, delivered_body hd body).
Proof.
  destruct (hdr_split rl w h) as (hs & hd & r & -> & Hall & Hf & -> & Hstop).
  rewrite runT_unfold. cbn [ConnSpec.step].
  destruct (take_line BUF r) as [[|c l] t| |] eqn:T; try (cbn; discriminate);
    [|destruct Hstop as [e ->]; cbn; discriminate].
  destruct (take_line_inv BUF r _ t T) as (-> & _). unfold delivered_body.
  destruct (h_content_length hd =? 0) eqn:Z.
  - rewrite outs_acc. intros [= <-]. exists hs, hd, [], t. apply N.eqb_eq in Z. rewrite Z.
    repeat split; auto. lia.
  - destruct (L <? h_content_length hd) eqn:Lt; [cbn; discriminate|]. apply N.ltb_ge in Lt.
    rewrite outs_acc. intros H.
    assert (H' : first_req (outs_of (runT (PBody rl hd [] (h_content_length hd)) t [])) = Some x)
      by (destruct (h_expect hd); exact H).
    destruct (body_phase_inv _ _ _ _ _ _ H') as (chunk & rest & -> & Hl & ->).
    exists hs, hd, chunk, rest. rewrite Z. repeat split; auto.
Qed.

(* the whole-stream parser delivers (rl, hd, b) first  ==>  the stream starts with a well-formed
   encoding of it: request line, header lines within the limit and acceptable under the header
   rules, blank line, and a body of exactly Content-Length <= L bytes *)
Theorem delivered_wellformed s x :
  first_req (outs_of (parse_stream BUF L s)) = Some x ->
  exists rlb rl hs hd body rest,
    s = rlb ++ CRLF ++ Grammar_proofs.with_crlf hs ++ CRLF ++ body ++ rest /\
    parse_reqline rlb = Ok rl /\ line_ok rlb /\
    Forall (fun l => l <> [] /\ line_ok l) hs /\ fold_lines headers_default hs = Ok hd /\
    h_content_length hd <= L /\ lenN body = h_content_length hd /\
    x = (rl, hd, delivered_body hd body).
Proof using All. (* C02 states it under the premise on BUF *)
  unfold parse_stream. rewrite runT_unfold. cbn [ConnSpec.step].
  destruct (take_line BUF s) as [l r| |] eqn:T; [|cbn; discriminate|cbn; discriminate].
  destruct (take_line_inv BUF s l r T) as (Es & Hnc & Hfit).
  destruct (parse_reqline l) as [rl|e] eqn:P; [|cbn; discriminate].
  intros H.
  destruct (hdr_phase_inv rl headers_default r x H)
    as (hs & hd & body & rest & Er & Hall & Hf & Hlim & Hlen & Hx).
  exists l, rl, hs, hd, body, rest. rewrite Es, Er. repeat split; auto.
Qed.

Lemma first_req_interim rl hd x tl : first_req (interim rl hd ++ ORequest rl hd x :: tl) = Some (rl, hd, x).
Proof. unfold interim. destruct (h_content_length hd =? 0); [reflexivity|]. destruct (h_expect hd); reflexivity. Qed.

(* the grammar, as an equivalence: the first request the whole-stream parser delivers is x iff
   the stream starts with a well-formed encoding of x *)
Theorem first_delivery_iff s x :
  first_req (outs_of (parse_stream BUF L s)) = Some x <->
  exists rlb rl hs hd body rest,
    s = rlb ++ CRLF ++ Grammar_proofs.with_crlf hs ++ CRLF ++ body ++ rest /\
    parse_reqline rlb = Ok rl /\ line_ok rlb /\
    Forall (fun l => l <> [] /\ line_ok l) hs /\ fold_lines headers_default hs = Ok hd /\
    h_content_length hd <= L /\ lenN body = h_content_length hd /\
    x = (rl, hd, delivered_body hd body).
Proof.
  split; [apply delivered_wellformed|].
  intros (rlb & rl & hs & hd & body & rest & -> & Prl & Hrl & Hall & Hf & Hlim & Hlen & ->).
  unfold parse_stream.
  rewrite (wellformed_delivered BUF BUF_min L rlb rl hs hd body rest [] Prl Hrl Hall Hf Hlim Hlen).
  rewrite outs_acc. cbn [app]. rewrite <- app_assoc. cbn [app]. apply first_req_interim.
Qed.

End Conv.
