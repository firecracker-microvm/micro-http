(* ConnSpec: one [step] on a window is stable under appending more bytes, hence parsing a
   stream in one go equals parsing it in any sequence of chunks (the core of C01). *)
From MH Require Export model.ConnSpec proofs.Bytes_proofs.

Definition starts_crlf (l : bytes) : bool := prefixb CRLF l.

Lemma find_crlf_cons a t :
  find_crlf (a :: t) = if starts_crlf (a :: t) then Some 0%nat else option_map S (find_crlf t).
Proof. reflexivity. Qed.

Lemma find_crlf_bound l i : find_crlf l = Some i -> (i + 2 <= length l)%nat.
Proof. apply (find_found CRLF). Qed.

Lemma find_crlf_none_prefix a i : find_crlf a = Some i -> forall k, (k < i)%nat -> starts_crlf (skipn k a) = false.
Proof. apply find_none_before. Qed.

Lemma find_crlf_firstn_none w k : find_crlf w = None -> find_crlf (firstn k w) = None.
Proof.
  intros H. destruct (find_crlf (firstn k w)) as [i|] eqn:E; [|reflexivity].
  rewrite <- (firstn_skipn k w) in H. rewrite (find_app_some _ _ _ _ E) in H. discriminate.
Qed.

(* appending a CR completes no CRLF: a line is CRLF-free iff it is so with the CR of its terminator *)
Lemma find_crlf_snoc_cr x : find_crlf (x ++ [CR]) = find_crlf x.
Proof.
  induction x as [|b t IH]; [reflexivity|]. cbn [app]. rewrite !find_crlf_cons, IH.
  replace (starts_crlf (b :: t ++ [CR])) with (starts_crlf (b :: t)); [reflexivity|].
  destruct t; [|reflexivity]. unfold starts_crlf, CRLF. cbn [app prefixb]. destruct (CR =? b); reflexivity.
Qed.

(* the first CRLF cuts off a line that has none, not even with the CR *)
Lemma find_crlf_cut x i : find_crlf x = Some i ->
  exists l t, x = l ++ CRLF ++ t /\ length l = i /\ find_crlf (l ++ [CR]) = None.
Proof.
  intros F. destruct (find_split _ _ _ F) as (l & t & -> & <-). exists l, t. repeat split.
  rewrite find_crlf_snoc_cr. destruct (find_crlf l) as [j|] eqn:E; [|reflexivity].
  (* a CRLF inside l would have been found first *)
  pose proof (find_crlf_bound _ _ E). rewrite (find_app_some _ _ _ _ E) in F. injection F as ->. lia.
Qed.

Lemma find_crlf_at_end l : find_crlf (l ++ [CR]) = None -> forall t, find_crlf (l ++ CRLF ++ t) = Some (length l).
Proof.
  induction l as [|x l IH]; intros H t.
  - reflexivity.
  - cbn [app] in H |- *. rewrite find_crlf_cons in H |- *.
    destruct (starts_crlf (x :: l ++ [CR])) eqn:S1; [discriminate|].
    destruct (find_crlf (l ++ [CR])) eqn:F; [discriminate|].
    assert (S2 : starts_crlf (x :: l ++ CRLF ++ t) = false).
    { destruct l as [|y l'].
      - unfold starts_crlf, CRLF. cbn [prefixb app]. change (LF =? CR) with false.
        cbn [andb]. apply andb_false_r.
      - (* both strings begin with x, y *)
        exact S1. }
    rewrite S2. rewrite (IH eq_refl t). reflexivity.
Qed.

Lemma firstn_app_le {A} (n : nat) (a b : list A) : (n <= length a)%nat -> firstn n (a ++ b) = firstn n a.
Proof. intros H. rewrite firstn_app. replace (n - length a)%nat with 0%nat by lia. cbn. apply app_nil_r. Qed.

Lemma skipn_app_le {A} (n : nat) (a b : list A) : (n <= length a)%nat -> skipn n (a ++ b) = skipn n a ++ b.
Proof. intros H. rewrite skipn_app. replace (n - length a)%nat with 0%nat by lia. reflexivity. Qed.

Section Spec.
Variable BUF : nat.
Variable L : N.

Notation take_line := (take_line BUF).
Notation step := (step BUF L).
Notation run := (run BUF L).
Notation runT := (runT BUF L).
Notation feed := (feed BUF L).

(* the line search in terms of the first CRLF of the whole window, however long the window is *)
Lemma take_line_found w i : find_crlf w = Some i ->
  take_line w = if (i + 2 <=? BUF)%nat then LLine (firstn i w) (skipn (i + 2) w) else LTooLong.
Proof.
  intros F. destruct (find_crlf_cut _ _ F) as (l & t & -> & <- & Hl). unfold ConnSpec.take_line.
  destruct (Nat.leb_spec (length l + 2) BUF) as [Le|Gt].
  - (* the terminator lies within the first BUF bytes *)
    replace (firstn BUF (l ++ CRLF ++ t)) with (l ++ CRLF ++ firstn (BUF - (length l + 2)) t).
    { rewrite (find_crlf_at_end l Hl). reflexivity. }
    rewrite !app_assoc, firstn_app, (firstn_all2 (l ++ CRLF)), app_length by (rewrite app_length; cbn; lia).
    reflexivity.
  - (* the first BUF bytes end before the LF *)
    replace (firstn BUF (l ++ CRLF ++ t)) with (firstn BUF (l ++ [CR])).
    { rewrite (find_crlf_firstn_none _ _ Hl), (proj2 (Nat.leb_le _ _)); [reflexivity|]. rewrite !app_length. cbn. lia. }
    change (CRLF ++ t) with ([CR] ++ LF :: t). rewrite app_assoc. symmetry. apply firstn_app_le.
    rewrite app_length. cbn. lia.
Qed.

Lemma take_line_none w : find_crlf w = None -> take_line w = if (BUF <=? length w)%nat then LTooLong else LMore.
Proof. intros F. unfold ConnSpec.take_line. rewrite (find_crlf_firstn_none w BUF F). reflexivity. Qed.

(* a line is returned only as the bytes before the first CRLF of the window, when they fit *)
Lemma take_line_inv w l rest :
  take_line w = LLine l rest ->
  w = l ++ CRLF ++ rest /\ find_crlf (l ++ [CR]) = None /\ (length l + 2 <= BUF)%nat.
Proof.
  destruct (find_crlf w) as [i|] eqn:F; [|rewrite (take_line_none w F); destruct (BUF <=? length w)%nat; discriminate].
  rewrite (take_line_found w i F). destruct (find_crlf_cut _ _ F) as (a & b & -> & <- & N1).
  destruct (Nat.leb_spec (length a + 2) BUF); [|discriminate].
  rewrite firstn_app_exact, skipn_app_plus. intros [= <- <-]. auto.
Qed.

Lemma take_line_line a b l rest :
  take_line a = LLine l rest -> take_line (a ++ b) = LLine l (rest ++ b).
Proof.
  intros H. destruct (take_line_inv a l rest H) as (-> & Hl & Hfit). rewrite <- !app_assoc.
  rewrite (take_line_found _ _ (find_crlf_at_end l Hl (rest ++ b))), firstn_app_exact, skipn_app_plus.
  rewrite (proj2 (Nat.leb_le _ _) Hfit). reflexivity.
Qed.

Lemma take_line_toolong a b :
  take_line a = LTooLong -> take_line (a ++ b) = LTooLong /\ firstn BUF (a ++ b) = firstn BUF a.
Proof.
  unfold ConnSpec.take_line. destruct (find_crlf (firstn BUF a)) as [i|] eqn:E; [discriminate|].
  destruct (BUF <=? length a)%nat eqn:Hl; [|discriminate]. intros _.
  apply Nat.leb_le in Hl. rewrite firstn_app_le by lia. rewrite E.
  rewrite app_length. destruct (BUF <=? length a + length b)%nat eqn:L2; [auto|].
  apply Nat.leb_gt in L2; lia.
Qed.

Lemma take_line_shrinks w l rest : take_line w = LLine l rest -> (length rest + 2 <= length w)%nat.
Proof. intros H. destruct (take_line_inv w l rest H) as (-> & _). rewrite !app_length. cbn [length CRLF]. lia. Qed.

Lemma take_line_more w : take_line w = LMore -> (length w < BUF)%nat.
Proof.
  unfold ConnSpec.take_line. destruct (find_crlf (firstn BUF w)); [discriminate|].
  destruct (BUF <=? length w)%nat eqn:E; [discriminate|]. intros _. apply Nat.leb_gt. exact E.
Qed.

Lemma lenN_app a b : lenN (a ++ b) = lenN a + lenN b.
Proof. unfold lenN. rewrite app_length. lia. Qed.

Lemma step_app ph a b :
  step ph (a ++ b) = match step ph a with
                     | SDone ph' rest o => SDone ph' (rest ++ b) o
                     | SMore ph' c => step ph' (c ++ b)
                     | SErr e => SErr e
                     end.
Proof.
  destruct ph as [|rl h|rl h acc lft]; cbn [ConnSpec.step].
  - destruct (take_line a) as [l r| |] eqn:T; [|destruct (take_line_toolong _ b T) as [-> _]|]; try reflexivity.
    rewrite (take_line_line _ b _ _ T). destruct (parse_reqline l); reflexivity.
  - destruct (take_line a) as [[|x l] r| |] eqn:T; [| |destruct (take_line_toolong _ b T) as [-> ->]|]; try reflexivity;
      rewrite (take_line_line _ b _ _ T).
    + destruct (h_content_length h =? 0); [reflexivity|]. destruct (L <? h_content_length h); reflexivity.
    + destruct (parse_header_tolerant h (x :: l)); reflexivity.
  - rewrite lenN_app. unfold lenN.
    destruct (N.leb_spec lft (N.of_nat (length a))) as [Hl|Hl].
    + destruct (N.leb_spec lft (N.of_nat (length a) + N.of_nat (length b))); [|lia].
      rewrite firstn_app_le, skipn_app_le by lia. reflexivity.
    + (* the body is still incomplete after a: the step on a ++ b takes from b what is left *)
      cbn [app ConnSpec.step]. unfold lenN.
      destruct (N.leb_spec lft (N.of_nat (length a) + N.of_nat (length b)));
        destruct (N.leb_spec (lft - N.of_nat (length a)) (N.of_nat (length b))); try lia.
      * rewrite skipn_app, firstn_app, (skipn_all2 a), (firstn_all2 a), <- !app_assoc by lia.
        replace (N.to_nat lft - length a)%nat with (N.to_nat (lft - N.of_nat (length a))) by lia.
        reflexivity.
      * rewrite <- app_assoc, N.sub_add_distr. reflexivity.
Qed.

Lemma step_done ph a b ph' rest o :
  step ph a = SDone ph' rest o -> step ph (a ++ b) = SDone ph' (rest ++ b) o.
Proof. intros H. rewrite step_app, H. reflexivity. Qed.

Lemma run_mono fuel : forall ph w acc r,
  run fuel ph w acc = r -> r <> ROutOfFuel -> forall k, run (fuel + k) ph w acc = r.
Proof.
  induction fuel as [|f IH]; intros ph w acc r H Hr k; cbn in H; [congruence|].
  cbn [Nat.add ConnSpec.run]. destruct (step ph w) as [ph' rest o|ph' c|e]; auto.
Qed.

Lemma step_rank ph w ph' rest o : step ph w = SDone ph' rest o -> (rank ph' rest < rank ph w)%nat.
Proof.
  destruct ph as [|rl h|rl h acc lft]; cbn [ConnSpec.step].
  - destruct (take_line w) as [l r| |] eqn:T; try discriminate.
    destruct (parse_reqline l); [|discriminate]. intros H; inversion H; subst.
    apply take_line_shrinks in T. unfold rank; lia.
  - destruct (take_line w) as [l r| |] eqn:T; try discriminate.
    apply take_line_shrinks in T.
    destruct l as [|x l'].
    + destruct (h_content_length h =? 0); [intros H; inversion H; subst; unfold rank; lia|].
      destruct (L <? h_content_length h); [discriminate|].
      intros H; inversion H; subst. unfold rank. destruct (h_content_length h); lia.
    + destruct (parse_header_tolerant h (x :: l')); [|discriminate]. intros H; inversion H; subst. unfold rank; lia.
  - destruct (lft <=? lenN w) eqn:Hl; [|discriminate]. apply N.leb_le in Hl. unfold lenN in Hl.
    intros H; inversion H; subst. unfold rank. rewrite skipn_length. destruct lft; lia.
Qed.

Lemma run_enough fuel : forall ph w acc, (rank ph w < fuel)%nat -> run fuel ph w acc <> ROutOfFuel.
Proof.
  induction fuel as [|f IH]; intros ph w acc H; [lia|].
  cbn [ConnSpec.run]. destruct (step ph w) as [ph' rest o|ph' c|e] eqn:St; try discriminate.
  apply IH. apply step_rank in St. lia.
Qed.

Lemma runT_unfold ph w acc :
  runT ph w acc =
  match step ph w with
  | SDone ph' rest o => runT ph' rest (acc ++ o)
  | SMore ph' c => RMore ph' c acc
  | SErr e => RErr acc e
  end.
Proof.
  unfold ConnSpec.runT at 1. cbn [ConnSpec.run]. destruct (step ph w) as [ph' rest o|ph' c|e] eqn:St; auto.
  pose proof (step_rank _ _ _ _ _ St) as Hr.
  replace (rank ph w) with (S (rank ph' rest) + (rank ph w - S (rank ph' rest)))%nat by lia.
  apply run_mono; [reflexivity|]. apply run_enough; lia.
Qed.

Lemma runT_not_out_of_fuel ph w acc : runT ph w acc <> ROutOfFuel.
Proof. unfold ConnSpec.runT. apply run_enough. lia. Qed.

(* induction on a run: a property that holds at ph, w whenever it holds after a completed step *)
Lemma runT_ind (P : phase -> bytes -> Prop) :
  (forall ph w, (forall ph' rest o, step ph w = SDone ph' rest o -> P ph' rest) -> P ph w) ->
  forall ph w, P ph w.
Proof.
  intros H ph w. remember (rank ph w) as n eqn:E. revert ph w E.
  induction n as [n IH] using lt_wf_ind. intros ph w ->. apply H. intros ph' rest o St.
  eapply IH; [eapply step_rank; exact St|reflexivity].
Qed.

(* an invariant of the phase and the outputs so far that every step keeps holds when the run stops *)
Lemma runT_invariant (I : phase -> list out -> Prop) (E : list out -> Prop) :
  (forall ph w acc, I ph acc ->
     match step ph w with
     | SDone ph' _ o => I ph' (acc ++ o)
     | SMore ph' _ => I ph' acc
     | SErr _ => E acc
     end) ->
  forall ph w acc, I ph acc ->
  match runT ph w acc with
  | RMore ph' _ o => I ph' o
  | RErr o _ => E o
  | ROutOfFuel => False
  end.
Proof.
  intros Hs ph w. pattern ph, w. apply runT_ind. clear ph w. intros ph w IH acc HI.
  rewrite runT_unfold. specialize (Hs ph w acc HI).
  destruct (step ph w) eqn:St; [eapply IH; [reflexivity|exact Hs]|exact Hs|exact Hs].
Qed.

(* the accumulator is only ever extended *)
Lemma runT_acc ph w : forall acc,
  runT ph w acc = match runT ph w [] with
                  | RMore ph' c o => RMore ph' c (acc ++ o)
                  | RErr o e => RErr (acc ++ o) e
                  | ROutOfFuel => ROutOfFuel
                  end.
Proof.
  pattern ph, w. apply runT_ind. clear ph w. intros ph w IH acc.
  rewrite (runT_unfold ph w acc), (runT_unfold ph w []).
  destruct (step ph w) as [ph' rest o|ph' c|e]; rewrite ?app_nil_r; try reflexivity.
  rewrite (IH _ _ _ eq_refl (acc ++ o)), (IH _ _ _ eq_refl ([] ++ o)).
  destruct (runT ph' rest []); cbn [app]; rewrite ?app_assoc; reflexivity.
Qed.

Lemma runT_app' ph a b : forall acc,
  runT ph (a ++ b) acc =
  match runT ph a acc with
  | RMore ph' c o => runT ph' (c ++ b) o
  | RErr o e => RErr o e
  | ROutOfFuel => ROutOfFuel
  end.
Proof.
  pattern ph, a. apply runT_ind. clear ph a. intros ph a IH acc.
  rewrite (runT_unfold ph a), (runT_unfold ph (a ++ b)), step_app.
  destruct (step ph a) as [ph' rest o|ph' c|e] eqn:St; [eapply IH; reflexivity| |reflexivity].
  rewrite <- runT_unfold. reflexivity.
Qed.

(* runT_app' with a bound on the fuel among its premises, which it does not need: use runT_app' *)
Theorem runT_app : forall n ph a b acc, (rank ph a < n)%nat ->
  runT ph (a ++ b) acc =
  match runT ph a acc with
  | RMore ph' c o => runT ph' (c ++ b) o
  | RErr o e => RErr o e
  | ROutOfFuel => ROutOfFuel
  end.
Proof. intros. apply runT_app'. Qed.

(* a window on which a step changes nothing: what a run leaves behind, and what a connection holds
   between two reads *)
Definition stuck (ph : phase) (w : bytes) : Prop := step ph w = SMore ph w.

Lemma stuck_iff ph w :
  stuck ph w <-> match ph with PBody _ _ _ lft => w = [] /\ 0 < lft | _ => take_line w = LMore end.
Proof.
  unfold stuck. destruct ph as [|rl h|rl h acc lft]; cbn [ConnSpec.step].
  - destruct (take_line w); [destruct (parse_reqline l)|..]; split; congruence.
  - destruct (take_line w) as [[|x l] r| |];
      [destruct (h_content_length h =? 0), (L <? h_content_length h)|destruct (parse_header_tolerant h (x :: l))|..];
      split; congruence.
  - destruct (lft <=? lenN w) eqn:Le.
    + apply N.leb_le in Le. split; [discriminate|]. intros [-> ?]. cbn in Le. lia.
    + apply N.leb_gt in Le. split.
      * intros E. injection E as _ _ <-. split; [reflexivity|exact Le].
      * intros [-> ?]. cbn. rewrite app_nil_r, N.sub_0_r. reflexivity.
Qed.

Lemma stuck_PLine_nil : (0 < BUF)%nat -> stuck PLine [].
Proof.
  intros HB. apply stuck_iff. rewrite take_line_none by reflexivity.
  destruct BUF; [lia|reflexivity].
Qed.

(* step_app with nothing appended: the step on w is the step on what it leaves *)
Lemma step_more_stuck ph w ph' c : step ph w = SMore ph' c -> stuck ph' c.
Proof.
  intros St. pose proof (step_app ph w []) as A. rewrite St, !app_nil_r in A.
  unfold stuck. rewrite <- A. exact St.
Qed.

Lemma runT_more_stuck ph w : forall acc ph' c o, runT ph w acc = RMore ph' c o -> stuck ph' c.
Proof.
  pattern ph, w. apply runT_ind. clear ph w. intros ph w IH acc ph' c o H.
  rewrite runT_unfold in H. destruct (step ph w) as [ph1 rest o1|ph1 c1|e] eqn:St.
  - eapply IH; [reflexivity|exact H].
  - inversion H; subst. eapply step_more_stuck; exact St.
  - discriminate.
Qed.

Lemma stuck_runT ph c acc : stuck ph c -> runT ph c acc = RMore ph c acc.
Proof. intros H. rewrite runT_unfold, H. reflexivity. Qed.

Theorem feed_eq_parse : forall chunks ph carry acc,
  stuck ph carry -> feed ph carry acc chunks = runT ph (carry ++ concat chunks) acc.
Proof.
  induction chunks as [|k ks IH]; intros ph carry acc Hstuck; cbn [ConnSpec.feed concat].
  - rewrite app_nil_r. symmetry. apply stuck_runT. exact Hstuck.
  - rewrite app_assoc, (runT_app' ph (carry ++ k) (concat ks) acc).
    destruct (runT ph (carry ++ k) acc) as [ph' c o| |] eqn:R; try reflexivity.
    apply IH. eapply runT_more_stuck; exact R.
Qed.

(* C01 at the level of the specification: feeding the chunks one by one is parsing their
   concatenation, so any two ways of cutting the same stream give the same deliveries, interim
   responses and first error *)
Theorem feed_whole_stream chunks : (0 < BUF)%nat ->
  feed PLine [] [] chunks = ConnSpec.parse_stream BUF L (concat chunks).
Proof. intros HB. rewrite feed_eq_parse by (apply stuck_PLine_nil; exact HB). reflexivity. Qed.

Theorem feed_schedule_independent chunks1 chunks2 : (0 < BUF)%nat ->
  concat chunks1 = concat chunks2 ->
  feed PLine [] [] chunks1 = feed PLine [] [] chunks2.
Proof. intros HB H. rewrite !feed_whole_stream by exact HB. rewrite H. reflexivity. Qed.

End Spec.

Lemma stuck_pmax BUF pm pm' ph w : stuck BUF pm ph w -> stuck BUF pm' ph w.
Proof. intros H. apply (stuck_iff BUF pm'). apply (stuck_iff BUF pm) in H. exact H. Qed.
