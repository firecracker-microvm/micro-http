(* C08: "flushing outgoing writes delivers queued responses that fit the socket buffer without
   polling".  In a calm world flush_outgoing_writes empties every connection's unsent output into
   its own client's receive queue (the wire of every connection is unchanged), leaves every
   connection awaiting input with IN interest, and keeps the invariants. *)
From MH Require Export proofs.Progress_proofs.

Section Fl.
Variable BUF : nat.
Hypothesis BUF_min : (2 <= BUF)%nat.
Hypothesis BUF_u32 : N.of_nat BUF < U32_LIMIT.
Notation Inv := (Inv BUF).

Lemma flush_one_calm w toks fd x :
  Inv w toks -> Calm w -> alookup fd (w_conns w) = Some x ->
  let w1 := flush_one w (fd, x) in
  Calm w1 /\
  (exists y, alookup fd (w_conns w1) = Some y /\ unsent (sc_conn y) = [] /\ sc_st y = AwaitIn /\ sc_out y = false /\
             sc_client y = sc_client x /\ wire w1 y = wire w x) /\
  forall fd' x', fd' <> fd -> alookup fd' (w_conns w) = Some x' ->
     alookup fd' (w_conns w1) = Some x' /\ wire w1 x' = wire w x'.
Proof.
  intros HI HC HL. cbn zeta. unfold flush_one.
  destruct (calm_conns _ HC _ _ HL) as (Hs & Hrb & cl & Hcl).
  rewrite (proj2 (calm_peer w fd x HC HL)), (client_of_lookup _ _ _ Hcl).
  destruct (inv_cc _ _ _ HI _ _ HL) as [Hok _]. pose proof (st_ok_mid x Hok) as Hm.
  destruct (flush_conn_spec (S (S (length (c_rq (sc_conn x))))) x true [] Hm)
    as (y & sent & -> & [_ Hc] & _ & _ & Hmy & Hsame & _ & D).
  destruct (D Hrb) as ((Hb & Hkeep & _ & Hopen) & Hfuel).
  (* the fuel covers every write, the client receives, and the entry was not Closed: all is sent *)
  assert (A : sc_st y = AwaitIn /\ unsent (sc_conn y) = [] /\ sent = unsent (sc_conn x)).
  { assert (Sy : sc_st y = AwaitIn).
    { destruct (sc_st y) eqn:Sy; [reflexivity| |].
      - specialize (Hfuel eq_refl eq_refl). unfold writes_needed in Hfuel. destruct (c_rbuf (sc_conn x)); lia.
      - destruct (sc_st x) eqn:S0; [| |congruence]; [rewrite Hsame in Sy by discriminate; congruence|].
        destruct (Hopen eq_refl eq_refl) as [N _]. destruct (N eq_refl). }
    unfold st_mid in Hmy. rewrite Sy in Hmy. pose proof (unsent_done _ Hb Hmy) as U. split; [exact Sy|]. split; [exact U|].
    destruct (sc_st x) eqn:S0; [| |congruence].
    - destruct Hkeep as (_ & Eu & ->); [discriminate|]. rewrite <- Eu. exact (eq_sym U).
    - destruct (Hopen eq_refl eq_refl) as [_ Hu]. rewrite Hu, U, app_nil_r. reflexivity. }
  destruct A as (Sy & U & ->).
  (* the entry written back: [y] awaiting input, its OUT interest withdrawn if it had one *)
  set (y' := if sstate_eqb (sc_st x) AwaitOut && sstate_eqb (sc_st y) AwaitIn then _ else y).
  assert (Ey : sc_conn y' = sc_conn y /\ sc_client y' = sc_client x /\ sc_st y' = AwaitIn /\ sc_out y' = false).
  { unfold y', st_ok in *. rewrite Sy. destruct (sc_st x) eqn:S0; cbn [sstate_eqb andb sc_conn sc_client sc_st sc_out]; [|auto|congruence].
    rewrite (Hsame ltac:(discriminate)), S0. tauto. }
  clearbody y'. destruct Ey as (E1 & E2 & E3 & E4). split; [|split].
  - apply (calm_update w fd x y' _ HC HL); [exact (calm_clients _ HC _ _ Hcl)|exact E2|rewrite E3; discriminate|rewrite E1; exact Hb].
  - exists y'. cbn [set_client set_conn w_conns]. split; [eapply alookup_update_same; eauto|]. rewrite E1.
    repeat (split; [assumption|]). unfold wire. rewrite E1, E2, (client_of_update_same _ _ _ _ cl _ Hcl), (client_of_lookup _ _ _ Hcl).
    rewrite U, app_nil_r. reflexivity.
  - intros fd' x' Hne HL'. cbn [set_client set_conn w_conns]. rewrite alookup_update_other by congruence.
    split; [exact HL'|]. unfold wire. rewrite client_of_set_client. destruct (Nat.eqb_spec (sc_client x) (sc_client x')) as [E|]; [|reflexivity].
    destruct (Hne (calm_inj _ HC _ _ _ _ HL' HL (eq_sym E))).
Qed.

Theorem flush_delivers_all w toks :
  Inv w toks -> Calm w ->
  Calm (flush w) /\ Inv (flush w) toks /\
  forall fd x, alookup fd (w_conns w) = Some x ->
    exists y, alookup fd (w_conns (flush w)) = Some y /\ sc_client y = sc_client x /\
      unsent (sc_conn y) = [] /\ sc_st y = AwaitIn /\ sc_out y = false /\ wire (flush w) y = wire w x.
Proof using BUF_min BUF_u32.
  intros HI HC.
  (* while the entries [l] are still to be visited: they are as they were, the others are drained *)
  set (P := fun (l : list (nat * sconn)) w0 => Calm w0 /\ Inv w0 toks /\
     forall fd x, alookup fd (w_conns w) = Some x ->
       exists y, alookup fd (w_conns w0) = Some y /\ sc_client y = sc_client x /\ wire w0 y = wire w x /\
         (In fd (map fst l) -> y = x) /\
         (~ In fd (map fst l) -> unsent (sc_conn y) = [] /\ sc_st y = AwaitIn /\ sc_out y = false)).
  assert (E : P [] (flush w)).
  { apply flush_fold; [apply (inv_nodup _ _ _ HI)| |].
    - intros fd0 x0 l w0 (C0 & I0 & F0) HL0 Hnot.
      destruct (flush_one_calm w0 toks fd0 x0 I0 C0 HL0) as (C1 & (y0 & L0 & U0 & S0 & O0 & Cl0 & W0) & Oth).
      split; [exact C1|]. split; [apply (flush_one_inv BUF); assumption|].
      intros fd x HL. destruct (F0 fd x HL) as (y & Ly & Cy & Wy & Hin & Hd).
      destruct (Nat.eq_dec fd fd0) as [->|Hne].
      + rewrite HL0 in Ly. injection Ly as <-. specialize (Hin (or_introl eq_refl)). subst x0.
        exists y0. split; [exact L0|]. split; [exact Cl0|]. split; [rewrite W0; exact Wy|].
        split; [intros Hi; destruct (Hnot Hi)|auto].
      + destruct (Oth fd y Hne Ly) as (L1 & W1).
        exists y. split; [exact L1|]. split; [exact Cy|]. split; [rewrite W1; exact Wy|]. split.
        * intros Hi. apply Hin. right. exact Hi.
        * intros Hn. apply Hd. intros [E|Hi]; [apply Hne; symmetry; exact E|exact (Hn Hi)].
    - split; [exact HC|]. split; [exact HI|]. intros fd x HL. exists x. split; [exact HL|]. split; [reflexivity|]. split; [reflexivity|]. split; [reflexivity|].
      intros Hn. destruct Hn. apply (in_map fst _ _ (alookup_some_in _ _ _ HL)). }
  destruct E as (C1 & I1 & F). split; [exact C1|]. split; [exact I1|].
  intros fd x HL. destruct (F fd x HL) as (y & Ly & Cy & Wy & _ & Hd). destruct (Hd (fun H => H)) as (U & S0 & O).
  exists y. auto 10.
Qed.

End Fl.
