(* The write half of the connection: conservation of bytes under every pattern of short,
   interrupted and failed writes (C06). *)
From MH Require Export model.ConnImpl proofs.Bytes_proofs.

Definition unsent (c : conn) : bytes :=
  match c_rbuf c with Some b => b | None => [] end ++ flat_map serialize (c_rq c).

(* ghost state: bytes the stream accepted and bytes committed (serialisations of the responses
   enqueued), both since the last discard *)
Record wstate := mkW { w_conn : conn; w_acc : bytes; w_com : bytes }.

Inductive wop :=
| WEnq (r : response)
| WTry (ev : write_ev)
| WClear.

(* the environment contract of io::Write::write: it never claims more than it was offered *)
Definition wop_ok (c : conn) (o : wop) : Prop :=
  match o with
  | WTry (WWrote k) =>
      match c_rbuf c with
      | Some b => (k <= length b)%nat
      | None => match c_rq c with r :: _ => (k <= length (serialize r))%nat | [] => True end
      end
  | _ => True
  end.

Definition wstep (w : wstate) (o : wop) : wstate * option wr_result :=
  match o with
  | WEnq r => (mkW (enqueue_response (w_conn w) r) (w_acc w) (w_com w ++ serialize r), None)
  | WClear => (mkW (clear_write_buffer (w_conn w)) [] [], None)
  | WTry ev =>
      let '(c', res, off) := try_write (w_conn w) ev in
      match res with
      | WrErr ConnectionClosed => (mkW c' [] [], Some res)       (* output discarded: a new epoch *)
      | _ =>
        let taken := match ev, off with
                     | WWrote k, Some b => firstn k b
                     | _, _ => []
                     end in
        (mkW c' (w_acc w ++ taken) (w_com w), Some res)
      end
  end.

Definition WInv (w : wstate) : Prop :=
  w_acc w ++ unsent (w_conn w) = w_com w /\ c_rbuf (w_conn w) <> Some [].

Lemma serialize_nonempty r : serialize r <> [].
Proof. unfold serialize, status_line. destruct (rs_version r); discriminate. Qed.

Lemma unsent_set_write c rq rb :
  unsent (set_write c rq rb) = match rb with Some b => b | None => [] end ++ flat_map serialize rq.
Proof. reflexivity. Qed.

(* try_write in its two halves: stage the bytes to offer (the rest of a partly written response, or
   the serialisation of the next one), then act on the result of the one write call *)
Definition stage (c : conn) : option (conn * bytes) :=
  match c_rbuf c with
  | Some b => Some (c, b)
  | None => match c_rq c with
            | r :: q => Some (set_write c q (Some (serialize r)), serialize r)
            | [] => None
            end
  end.

Definition write_out (c1 : conn) (b : bytes) (ev : write_ev) : conn * wr_result * option bytes :=
  match ev with
  | WWrote O => (clear_write_buffer c1, WrErr ConnectionClosed, Some b)
  | WWrote k =>
      if (k =? length b)%nat then (set_write c1 (c_rq c1) None, WrOk, Some b)
      else if (length b <? k)%nat then (c1, WrPanic 50, Some b)
      else (set_write c1 (c_rq c1) (Some (skipn k b)), WrOk, Some b)
  | WIntr => (c1, WrOk, Some b)
  | WFail => (clear_write_buffer c1, WrErr ConnectionClosed, Some b)
  end.

Lemma try_write_eq c ev :
  try_write c ev = match stage c with
                   | None => (c, WrErr InvalidWrite, None)
                   | Some (c1, b) => write_out c1 b ev
                   end.
Proof. unfold try_write, stage. destruct (c_rbuf c); [reflexivity|]. destruct (c_rq c); reflexivity. Qed.

Lemma stage_some c c1 b : stage c = Some (c1, b) ->
  c_rbuf c1 = Some b /\ unsent c1 = unsent c /\ (c_rbuf c <> Some [] -> b <> []) /\
  (forall k, wop_ok c (WTry (WWrote k)) <-> (k <= length b)%nat).
Proof.
  unfold stage, unsent, wop_ok. destruct (c_rbuf c) as [b0|] eqn:R.
  - intros H; inversion H; subst. rewrite R. repeat split; congruence.
  - destruct (c_rq c) as [|r q]; [discriminate|]. intros H; inversion H; subst.
    repeat split; auto. intros _. apply serialize_nonempty.
Qed.

Lemma stage_none c : stage c = None -> unsent c = [].
Proof. unfold stage, unsent. destruct (c_rbuf c); [discriminate|]. destruct (c_rq c); [reflexivity|discriminate]. Qed.

Lemma wstep_inv w o : WInv w -> wop_ok (w_conn w) o -> WInv (fst (wstep w o)).
Proof.
  intros [Hc Hb] Hok. destruct w as [c acc com]. cbn [w_conn w_acc w_com] in *.
  destruct o as [r|ev|]; cbn [wstep fst w_conn w_acc w_com].
  - split; cbn [w_conn w_acc w_com]; [|exact Hb].
    unfold enqueue_response. rewrite unsent_set_write. unfold unsent in Hc.
    rewrite flat_map_app. cbn [flat_map]. rewrite app_nil_r. rewrite <- Hc. rewrite <- !app_assoc. reflexivity.
  - rewrite try_write_eq. destruct (stage c) as [[c1 b]|] eqn:St.
    2: { destruct ev; cbn; rewrite app_nil_r; split; assumption. }
    destruct (stage_some _ _ _ St) as (R & Hu & Hne & Hk). specialize (Hne Hb).
    rewrite <- Hu in Hc. unfold unsent in Hc. rewrite R in Hc. unfold write_out.
    destruct ev as [[|k]| |]; try (split; cbn; [reflexivity|discriminate]).
    + (* k bytes of b accepted, 0 < k <= |b| *)
      apply Hk in Hok. destruct (Nat.eqb_spec (S k) (length b)) as [E|E];
        [|destruct (Nat.ltb_spec (length b) (S k)); [lia|]]; split; cbn [fst w_conn w_acc w_com];
        rewrite ?unsent_set_write; try (cbn; discriminate).
      * rewrite E, firstn_all, <- app_assoc. exact Hc.
      * rewrite <- Hc, <- !app_assoc, (app_assoc (firstn _ b)), firstn_skipn. reflexivity.
      * cbn [c_rbuf set_write]. intros H0.
        apply (f_equal (fun o => match o with Some l => length l | None => O end)) in H0.
        change (length (skipn (S k) b) = O) in H0. rewrite skipn_length in H0. lia.
    + split; cbn [fst w_conn w_acc w_com]; [unfold unsent; rewrite app_nil_r, R; exact Hc|].
      rewrite R. congruence.
  - split; cbn; [reflexivity|discriminate].
Qed.

Fixpoint wrun (w : wstate) (ops : list wop) : wstate :=
  match ops with [] => w | o :: r => wrun (fst (wstep w o)) r end.

Fixpoint wops_ok (w : wstate) (ops : list wop) : Prop :=
  match ops with [] => True | o :: r => wop_ok (w_conn w) o /\ wops_ok (fst (wstep w o)) r end.

Theorem wrun_inv ops : forall w, WInv w -> wops_ok w ops -> WInv (wrun w ops).
Proof.
  induction ops as [|o r IH]; intros w I H; cbn in *; [exact I|].
  destruct H as [H1 H2]. apply IH; [apply wstep_inv; auto|exact H2].
Qed.

Lemma WInv_new c : c_rq c = [] -> c_rbuf c = None -> WInv (mkW c [] []).
Proof. intros H1 H2. split; cbn; unfold unsent; rewrite ?H1, ?H2; [reflexivity|discriminate]. Qed.

(* pending_write is true exactly while some byte remains unsent *)
Lemma pending_iff c : c_rbuf c <> Some [] -> (pending_write c = true <-> unsent c <> []).
Proof.
  intros Hb. unfold pending_write, unsent. destruct (c_rbuf c) as [b|].
  - split; [|auto]. intros _. destruct b; [exfalso; apply Hb; reflexivity|discriminate].
  - destruct (c_rq c) as [|r q]; cbn.
    + split; [discriminate|congruence].
    + split; [|auto]. intros _ H. apply app_eq_nil in H. destruct H as [H _]. exact (serialize_nonempty r H).
Qed.

(* zero bytes written or a non-interrupt error: everything pending is discarded, closed is reported *)
Lemma try_write_failure c ev c' res off :
  unsent c <> [] -> c_rbuf c <> Some [] -> (ev = WWrote 0 \/ ev = WFail) -> try_write c ev = (c', res, off) ->
  res = WrErr ConnectionClosed /\ unsent c' = [] /\ pending_write c' = false.
Proof.
  intros Hu _ He. rewrite try_write_eq. destruct (stage c) as [[c1 b]|] eqn:St.
  - destruct He as [-> | ->]; intros H; inversion H; subst; cbn; auto.
  - destruct (Hu (stage_none _ St)).
Qed.

Lemma try_write_interrupted c c' res off :
  try_write c WIntr = (c', res, off) -> unsent c <> [] -> res = WrOk /\ unsent c' = unsent c.
Proof.
  rewrite try_write_eq. destruct (stage c) as [[c1 b]|] eqn:St.
  - intros H _; inversion H; subst. split; [reflexivity|apply (stage_some _ _ _ St)].
  - intros _ Hu. destruct (Hu (stage_none _ St)).
Qed.

(* nothing pending: InvalidWrite, the stream is not touched, the connection is unchanged *)
Lemma try_write_invalid c ev : unsent c = [] -> c_rbuf c <> Some [] ->
  try_write c ev = (c, WrErr InvalidWrite, None).
Proof.
  intros Hu Hb. rewrite try_write_eq. destruct (stage c) as [[c1 b]|] eqn:St; [|reflexivity].
  destruct (stage_some _ _ _ St) as (R & Hu1 & Hne & _). exfalso. apply (Hne Hb).
  rewrite Hu in Hu1. unfold unsent in Hu1. rewrite R in Hu1. apply app_eq_nil in Hu1. apply Hu1.
Qed.

(* try_write makes at most one write call, and exactly none when it reports InvalidWrite *)
Lemma try_write_offer c ev c' res off :
  try_write c ev = (c', res, off) -> (off = None <-> res = WrErr InvalidWrite).
Proof.
  rewrite try_write_eq. destruct (stage c) as [[c1 b]|]; [|intros H; inversion H; subst; split; auto].
  unfold write_out. destruct ev as [[|k]| |]; [|destruct (S k =? length b)%nat; [|destruct (length b <? S k)%nat]|..];
    intros H; inversion H; subst; split; discriminate.
Qed.

(* no write result allowed by the contract reaches the modelled panic site *)
Lemma try_write_no_panic c ev : wop_ok c (WTry ev) -> forall s, snd (fst (try_write c ev)) <> WrPanic s.
Proof.
  intros Hok s. rewrite try_write_eq. destruct (stage c) as [[c1 b]|] eqn:St; [|discriminate].
  unfold write_out. destruct ev as [[|k]| |]; try discriminate.
  apply (stage_some _ _ _ St) in Hok.
  destruct (S k =? length b)%nat; [discriminate|]. destruct (Nat.ltb_spec (length b) (S k)); [lia|discriminate].
Qed.

(* the operations that discard nothing: enqueues, writes that accept at least one byte, interrupted writes *)
Definition no_discard (o : wop) : Prop :=
  match o with WEnq _ => True | WTry (WWrote (S _)) => True | WTry WIntr => True | _ => False end.

Fixpoint enqueued (ops : list wop) : list response :=
  match ops with [] => [] | WEnq r :: t => r :: enqueued t | _ :: t => enqueued t end.

Lemma wstep_no_discard_com w o : no_discard o ->
  w_com (fst (wstep w o)) = w_com w ++ flat_map serialize (enqueued [o]).
Proof.
  intros Hn. destruct o as [r|ev|]; cbn in Hn |- *; [rewrite app_nil_r; reflexivity| |contradiction].
  rewrite try_write_eq. destruct (stage (w_conn w)) as [[c1 b]|]; [|cbn; rewrite app_nil_r; reflexivity].
  unfold write_out. destruct ev as [[|k]| |]; try contradiction; [|cbn; rewrite app_nil_r; reflexivity].
  destruct (S k =? length b)%nat; [|destruct (length b <? S k)%nat]; cbn; rewrite app_nil_r; reflexivity.
Qed.

(* histories without a discard: accepted bytes are a prefix of the concatenated serialisations *)
Theorem wrun_prefix ops : forall w, WInv w -> wops_ok w ops -> Forall no_discard ops ->
  w_acc (wrun w ops) ++ unsent (w_conn (wrun w ops)) = w_com w ++ flat_map serialize (enqueued ops).
Proof.
  induction ops as [|o r IH]; intros w I H Hn; cbn [wrun enqueued].
  - cbn. rewrite app_nil_r. apply I.
  - inversion Hn as [|? ? Ho Hr]; subst. destruct H as [H1 H2].
    rewrite IH; [|apply wstep_inv; auto|exact H2|exact Hr].
    rewrite (wstep_no_discard_com w o Ho).
    destruct o as [x|ev|]; cbn [enqueued flat_map]; rewrite <- ?app_assoc, ?app_nil_r; reflexivity.
Qed.
