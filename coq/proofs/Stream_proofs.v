(* C07, the whole byte stream a client receives, over ALL histories.

   Ghost bookkeeping (defined from what is observable outside the server, never from its internals):
     g_rcv c   every byte the server side has appended to client c's receive queue so far, in order
             (a poll appends d c, where d c is the growth of k_rx between the two worlds);
     g_sup g   the responses the application has supplied with a token of connection instance g, in order;
     g_yld g   how many requests have been yielded with a token of instance g;
     g_seen    the clients that have ever asked to connect (a client connects once).

   Theorem (stream_provenance): in every history of polls (any contract-abiding, truthful batch in any
   order, any partial reads / writes), responses for held tokens, flush_outgoing_writes, and arbitrary client / environment
   behaviour (send, close, half-close, read, new clients; a closed or shut-down direction stays so),
   there are a map beta from instances to clients, one-to-one, and for each instance g a sequence
   log g of responses such that
     - g_rcv c is []  or the 503 refusal  or a PREFIX of the serialisation of log g for the one instance g of c;
     - every element of log g is either server-generated (100 Continue / 400) or a response the application
       supplied with a token of g; the latter form a SUBSEQUENCE of g_sup g (each at most once, in order);
     - the number of responses supplied for g plus the tokens of g still held is the number of requests
       yielded for g (each request is answered at most once).
   So a response supplied with a token of instance g can only ever appear in the stream of client beta g.

   The invariant SI is carried over the state bundled with its bookkeeping (SIg), the bookkeeping after a step
   being a function of the two worlds (gpoll, gresp, genv: what was delivered is the growth delta of the receive
   queues, which only grow).  Every step that rewrites one table entry goes through conn_step_SI, which asks of the step
   only how the entry's unsent output, its state and what its client received are related; io_step_SI is its
   form for a step of the server's own on the entry (hang-up, read, write), and write_step_SI the case of a write,
   which the OUT event and each entry of flush_outgoing_writes instantiate. *)
From MH Require Export proofs.Provenance_proofs.

Inductive item := IGen (r : response) | IApp (r : response).
Definition iresp (i : item) : response := match i with IGen r | IApp r => r end.
Definition ser (l : list item) : bytes := flat_map (fun i => serialize (iresp i)) l.
Definition apps (l : list item) : list response :=
  flat_map (fun i => match i with IApp r => [r] | IGen _ => [] end) l.
Definition gens_ok (l : list item) : Prop :=
  Forall (fun i => match i with IGen r => server_generated r | IApp _ => True end) l.

Inductive subseq {A} : list A -> list A -> Prop :=
| sub_nil : subseq [] []
| sub_take a l1 l2 : subseq l1 l2 -> subseq (a :: l1) (a :: l2)
| sub_skip a l1 l2 : subseq l1 l2 -> subseq l1 (a :: l2).

Lemma subseq_refl {A} (l : list A) : subseq l l.
Proof. induction l; constructor; auto. Qed.
Lemma subseq_snoc_both {A} (l1 l2 : list A) a : subseq l1 l2 -> subseq (l1 ++ [a]) (l2 ++ [a]).
Proof. induction 1; cbn; [repeat constructor|constructor; auto|constructor; auto]. Qed.
Lemma subseq_snoc_skip {A} (l1 l2 : list A) a : subseq l1 l2 -> subseq l1 (l2 ++ [a]).
Proof. induction 1; cbn; [repeat constructor|constructor; auto|constructor; auto]. Qed.
Lemma subseq_length {A} (l1 l2 : list A) : subseq l1 l2 -> (length l1 <= length l2)%nat.
Proof. induction 1; cbn; lia. Qed.

Lemma ser_app a b : ser (a ++ b) = ser a ++ ser b.
Proof. unfold ser. apply flat_map_app. Qed.
Lemma ser_gens gen : ser (map IGen gen) = flat_map serialize gen.
Proof. unfold ser. induction gen as [|r t IH]; cbn; [reflexivity|]. rewrite IH. reflexivity. Qed.
Lemma apps_app a b : apps (a ++ b) = apps a ++ apps b.
Proof. unfold apps. apply flat_map_app. Qed.
Lemma apps_gens gen : apps (map IGen gen) = [].
Proof. unfold apps. induction gen; cbn; auto. Qed.
Lemma gens_ok_app a b : gens_ok a -> gens_ok b -> gens_ok (a ++ b).
Proof. unfold gens_ok. intros. apply Forall_app. auto. Qed.
Lemma gens_ok_gens gen : Forall server_generated gen -> gens_ok (map IGen gen).
Proof. unfold gens_ok. induction 1; cbn; constructor; auto. Qed.

Definition flags_same (w w' : world) : Prop :=
  forall c, k_hup (client_of w' c) = k_hup (client_of w c) /\
            k_can_receive (client_of w' c) = k_can_receive (client_of w c).

Lemma flags_same_trans w1 w2 w3 : flags_same w1 w2 -> flags_same w2 w3 -> flags_same w1 w3.
Proof. intros H1 H2 c. destruct (H1 c), (H2 c). split; congruence. Qed.

Lemma flags_same_client (w w' : world) c0 cl' :
  w_clients w' = aupdate c0 cl' (w_clients w) ->
  k_open cl' = k_open (client_of w c0) -> k_shut_wr cl' = k_shut_wr (client_of w c0) ->
  k_shut_rd cl' = k_shut_rd (client_of w c0) -> flags_same w w'.
Proof.
  intros E E1 E2 E3 c. rewrite (client_after w w' c0 cl' c E).
  destruct (Nat.eqb_spec c0 c) as [<-|]; [|auto]. unfold client_of in *.
  destruct (alookup c0 (w_clients w)); [|auto]. unfold k_hup, k_can_receive. rewrite E1, E2, E3. auto.
Qed.

Section Stream.
Variable BUF : nat.
Hypothesis BUF_min : (2 <= BUF)%nat.
Hypothesis BUF_u32 : N.of_nat BUF < U32_LIMIT.

Notation handle_event := (handle_event BUF).
Notation handle_all := (handle_all BUF).
Notation poll_with := (poll_with BUF).
Notation Inv := (Inv BUF).

Lemma sweep_flags w : flags_same w (sweep w).
Proof.
  intros c. pose proof (sweep_client w c) as (A1 & A2 & A3 & _).
  unfold k_hup, k_can_receive. rewrite A1, A2, A3. auto.
Qed.

(* while the client can still be written to: the wire of a connection that is not Closed is intact
   (everything delivered so far followed by the unsent output is the serialisation of the instance's log),
   and a Closed connection's client has hung up (so nothing is ever read from it again) *)
Definition intact (w : world) (rcv : nat -> bytes) (log : nat -> list item) (x : sconn) : Prop :=
  k_can_receive (client_of w (sc_client x)) = true ->
  (sc_st x <> SClosed -> rcv (sc_client x) ++ unsent (sc_conn x) = ser (log (sc_gid x))) /\
  (sc_st x = SClosed -> k_hup (client_of w (sc_client x)) = true).

(* Beside Inv, bound and, for each entry, intact, the invariant speaks of every instance ever created, in the table
   or not: what its client has received is a prefix of its log (si_pref) and no two share a client (si_binj); of the
   clients without an instance: one still waiting has received nothing (si_bl), any other nothing or the 503
   (si_other); and of the instances to come: their logs are empty (si_log_new), so an accepted client starts from
   an empty log. *)
Record SI (w : world) (toks : list tok) (rcv : nat -> bytes) (sup : nat -> list response) (yld : nat -> nat)
          (seen : list nat) (beta : nat -> nat) (log : nat -> list item) : Prop := {
  si_inv : Inv w toks;
  si_bound : bound beta w;
  si_rb : forall fd x, alookup fd (w_conns w) = Some x -> c_rbuf (sc_conn x) <> Some [];
  si_intact : forall fd x, alookup fd (w_conns w) = Some x -> intact w rcv log x;
  si_pref : forall g, (g < w_nextg w)%nat -> exists tail, rcv (beta g) ++ tail = ser (log g);
  si_binj : forall g g', (g < w_nextg w)%nat -> (g' < w_nextg w)%nat -> beta g = beta g' -> g = g';
  si_seen : forall g, (g < w_nextg w)%nat -> In (beta g) seen;
  si_unseen : forall c, ~ In c seen -> rcv c = [];
  si_bl_nodup : NoDup (w_backlog w);
  si_bl : forall c, In c (w_backlog w) ->
            In c seen /\ rcv c = [] /\ forall g, (g < w_nextg w)%nat -> beta g <> c;
  si_other : forall c, (forall g, (g < w_nextg w)%nat -> beta g <> c) ->
            rcv c = [] \/ rcv c = SERVER_FULL_ERROR_MESSAGE;
  si_log_new : forall g, (w_nextg w <= g)%nat -> log g = [];
  si_gens : forall g, gens_ok (log g);
  si_apps : forall g, subseq (apps (log g)) (sup g);
  si_count : forall g, (length (sup g) + count_g g toks = yld g)%nat;
}.

#[global] Arguments si_inv {w toks rcv sup yld seen beta log} _.
#[global] Arguments si_bound {w toks rcv sup yld seen beta log} _.
#[global] Arguments si_rb {w toks rcv sup yld seen beta log} _.
#[global] Arguments si_binj {w toks rcv sup yld seen beta log} _.
#[global] Arguments si_bl_nodup {w toks rcv sup yld seen beta log} _.
#[global] Arguments si_bl {w toks rcv sup yld seen beta log} _.

Record ghost := mkG {
  g_rcv : nat -> bytes;             (* client -> everything the server side has put into its receive queue *)
  g_sup : nat -> list response;     (* instance -> responses the application supplied with a token of it *)
  g_yld : nat -> nat;               (* instance -> number of requests yielded with a token of it *)
  g_seen : list nat;                (* clients that have asked to connect *)
}.
Definition ghost0 : ghost := mkG (fun _ => []) (fun _ => []) (fun _ => 0%nat) [].

Definition SIg (s : world * list tok * ghost) (beta : nat -> nat) (log : nat -> list item) : Prop :=
  let '(w, toks, G) := s in SI w toks (g_rcv G) (g_sup G) (g_yld G) (g_seen G) beta log.

Definition delta (w w' : world) (c : nat) : bytes := skipn (length (k_rx (client_of w c))) (k_rx (client_of w' c)).
Definition gpoll (G : ghost) (w w' : world) (ys : list yield) : ghost :=
  mkG (fun c => g_rcv G c ++ delta w w' c) (g_sup G) (fun g => (g_yld G g + count_g g (ytoks ys))%nat) (g_seen G).
Definition gresp (G : ghost) (g : nat) (r : response) : ghost :=
  mkG (g_rcv G) (fun g0 => if Nat.eqb g0 g then g_sup G g ++ [r] else g_sup G g0) (g_yld G) (g_seen G).
Definition genv (G : ghost) (new : list nat) : ghost := mkG (g_rcv G) (g_sup G) (g_yld G) (g_seen G ++ new).

(* Receive queues only grow under the server's own steps, so what a step delivers can be read off the two
   worlds: whatever is shown to have been appended is [delta]. *)
Definition grows (w w' : world) : Prop :=
  forall c, k_rx (client_of w' c) = k_rx (client_of w c) ++ delta w w' c.

Lemma delta_spec w w' c d : k_rx (client_of w' c) = k_rx (client_of w c) ++ d -> delta w w' c = d.
Proof. intros E. unfold delta. rewrite E, skipn_app, skipn_all, Nat.sub_diag. reflexivity. Qed.

Lemma grows_of w w' : (forall c, exists d, k_rx (client_of w' c) = k_rx (client_of w c) ++ d) -> grows w w'.
Proof. intros H c. destruct (H c) as [d E]. rewrite (delta_spec _ _ _ _ E). exact E. Qed.

Lemma grows_refl w : grows w w.
Proof. apply grows_of. intros c. exists []. symmetry. apply app_nil_r. Qed.

Lemma grows_trans w1 w2 w3 : grows w1 w2 -> grows w2 w3 ->
  grows w1 w3 /\ forall c, delta w1 w3 c = delta w1 w2 c ++ delta w2 w3 c.
Proof.
  intros H1 H2. assert (E : forall c, delta w1 w3 c = delta w1 w2 c ++ delta w2 w3 c).
  { intros c. apply delta_spec. rewrite (H2 c), (H1 c), <- app_assoc. reflexivity. }
  split; [|exact E]. intros c. rewrite E, app_assoc, <- (H1 c). apply H2.
Qed.

Lemma event_grows w e w' ys : handle_event w e = inl (w', ys) -> grows w w'.
Proof. intros H. apply grows_of. intros c. destruct (event_delivery BUF w e w' ys c H) as (d & E & _). eauto. Qed.

Lemma batch_grows : forall es w acc w' ys, handle_all w es acc = inl (w', ys) -> grows w w'.
Proof.
  induction es as [|e t IH]; intros w acc w' ys; cbn [Server.handle_all].
  - intros H. injection H as <- _. apply grows_refl.
  - destruct (handle_event w e) as [[w1 ys1]|] eqn:Hh; [|discriminate]. intros H.
    exact (proj1 (grows_trans _ _ _ (event_grows _ _ _ _ Hh) (IH _ _ _ _ H))).
Qed.

Lemma poll_grows w es w' ys : poll_with w es = PYield w' ys -> grows w w'.
Proof.
  intros Hp. destruct (poll_with_yield BUF _ _ _ _ Hp) as (_ & w1 & Hh & ->).
  apply grows_of. intros c. rewrite sweep_delivery. eexists. apply (batch_grows _ _ _ _ _ Hh).
Qed.

Lemma flush_one_grows w fd x : grows w (flush_one w (fd, x)).
Proof.
  apply grows_of. intros c. unfold flush_one. destruct (flush_conn _ x _ []) as [y s].
  eexists. apply rx_after_conn. reflexivity.
Qed.

(* The invariant reads the bookkeeping pointwise, and of the tokens only which are held and how many per
   instance. *)
Definition geq (G G' : ghost) : Prop :=
  (forall c, g_rcv G' c = g_rcv G c) /\ (forall g, g_sup G' g = g_sup G g) /\
  (forall g, g_yld G' g = g_yld G g) /\ g_seen G' = g_seen G.

Lemma geq_refl G : geq G G.
Proof. repeat split. Qed.

Lemma SI_ext w a b G G' beta log :
  (forall t, In t a <-> In t b) -> (forall g, count_g g a = count_g g b) -> geq G G' ->
  SIg (w, a, G) beta log -> SIg (w, b, G') beta log.
Proof.
  intros S1 S2 (Hr & Hs & Hy & Hse) [HI Hb Hrb Hint Hpref Hbinj Hseen Hunseen Hnd Hbl Hoth Hnew Hgens Happs Hcnt].
  constructor; auto.
  - (* si_inv *) exact (Inv_toks_ext BUF w a b (fun t => proj2 (S1 t)) (fun g => eq_sym (S2 g)) HI).
  - (* si_intact *) intros fd x HL. unfold intact. rewrite Hr. apply (Hint _ _ HL).
  - (* si_pref *) intros g Hg. rewrite Hr. auto.
  - (* si_seen *) intros g Hg. rewrite Hse. auto.
  - (* si_unseen *) intros c Hc. rewrite Hr. rewrite Hse in Hc. auto.
  - (* si_bl *) intros c Hc. rewrite Hr, Hse. auto.
  - (* si_other *) intros c Hc. rewrite Hr. auto.
  - (* si_apps *) intros g. rewrite Hs. auto.
  - (* si_count *) intros g. rewrite Hs, Hy, <- S2. auto.
Qed.

Lemma SI_geq w toks G G' beta log : geq G G' -> SIg (w, toks, G) beta log -> SIg (w, toks, G') beta log.
Proof. exact (SI_ext w toks toks G G' beta log (fun _ => iff_refl _) (fun _ => eq_refl)). Qed.

Lemma gpoll_quiet G w w' : (forall c, k_rx (client_of w' c) = k_rx (client_of w c)) -> geq G (gpoll G w w' []).
Proof.
  intros E. split; [|split; [reflexivity|split; [intros g; apply Nat.add_0_r|reflexivity]]].
  intros c. cbn [gpoll g_rcv]. rewrite (delta_spec w w' c []); [apply app_nil_r|]. rewrite app_nil_r. apply E.
Qed.

Lemma gpoll_trans G w1 w2 w3 ys0 ys1 : grows w1 w2 -> grows w2 w3 ->
  geq (gpoll (gpoll G w1 w2 ys0) w2 w3 ys1) (gpoll G w1 w3 (ys0 ++ ys1)).
Proof.
  intros H1 H2. destruct (grows_trans _ _ _ H1 H2) as [_ Ed].
  split; [|split; [reflexivity|split; [|reflexivity]]]; cbn [gpoll g_rcv g_yld].
  - intros c. rewrite Ed. apply app_assoc.
  - intros g. rewrite ytoks_app, count_g_app. apply Nat.add_assoc.
Qed.

Lemma si_client_inj w toks G beta log fd fd' x x' :
  SIg (w, toks, G) beta log ->
  alookup fd (w_conns w) = Some x -> alookup fd' (w_conns w) = Some x' -> sc_client x = sc_client x' -> fd = fd'.
Proof.
  intros S H1 H2 E. pose proof (si_inv S) as HI.
  rewrite <- (si_bound S _ _ H1), <- (si_bound S _ _ H2) in E.
  apply (si_binj S) in E; [|eapply inv_gid_lt; eauto|eapply inv_gid_lt; eauto].
  eapply inv_gid_inj; eauto.
Qed.

Lemma intact_ext w w' rcv rcv' log log' x :
  flags_same w w' -> rcv' (sc_client x) = rcv (sc_client x) -> log' (sc_gid x) = log (sc_gid x) ->
  intact w rcv log x -> intact w' rcv' log' x.
Proof. intros Hfl Er El Hi. unfold intact in *. destruct (Hfl (sc_client x)) as [F1 F2]. rewrite F1, F2, Er, El. exact Hi. Qed.

(* One entry changes: [x] at [fd] becomes [y], the client of [x] receives [sent], the log of the instance grows
   by [ext].  What the wire asks of the step mentions neither the bookkeeping nor the log: [sent] leaves the
   front of the unsent output of an open connection whose client can receive; and while the client can
   receive, [y] is Closed only if the client has hung up, and otherwise the unsent output of [x] followed by
   [ext] is [sent] followed by the unsent output of [y]. *)
Lemma conn_step_SI w toks G beta log w' toks' G' fd x y sent ext :
  let cl := client_of w (sc_client x) in
  let log' := fun g => if Nat.eqb g (sc_gid x) then log g ++ ext else log g in
  SIg (w, toks, G) beta log -> alookup fd (w_conns w) = Some x ->
  w_conns w' = aupdate fd y (w_conns w) -> w_backlog w' = w_backlog w -> w_nextg w' = w_nextg w ->
  flags_same w w' -> same_peer x y -> c_rbuf (sc_conn y) <> Some [] -> gens_ok ext ->
  (sent = [] \/ (k_can_receive cl = true /\ sc_st x <> SClosed /\ exists rest, unsent (sc_conn x) = sent ++ rest)) ->
  (k_can_receive cl = true -> (sc_st x = SClosed -> k_hup cl = true) ->
     (sc_st y <> SClosed -> sc_st x <> SClosed /\ unsent (sc_conn x) ++ ser ext = sent ++ unsent (sc_conn y)) /\
     (sc_st y = SClosed -> k_hup cl = true)) ->
  Inv w' toks' ->
  (forall c, g_rcv G' c = g_rcv G c ++ (if Nat.eqb c (sc_client x) then sent else [])) -> g_seen G' = g_seen G ->
  (forall g, subseq (apps (log' g)) (g_sup G' g)) ->
  (forall g, (length (g_sup G' g) + count_g g toks' = g_yld G' g)%nat) ->
  SIg (w', toks', G') beta log'.
Proof.
  intros cl log' S HL Ec Ebl Eng Hfl [Eg Ecl] Hrby Hext Hd Hkey HI' Hrcv Hse Happs' Hcnt'.
  pose proof S as [HI Hb Hrb Hint Hpref Hbinj Hseen Hunseen Hnd Hbl Hoth Hnew Hgens Happs Hcnt].
  pose proof (inv_gid_lt _ _ _ HI _ _ HL) as Hglt.
  pose proof (Hb _ _ HL) as Hbx.
  assert (Hother_client : forall c, c <> sc_client x -> g_rcv G' c = g_rcv G c).
  { intros c Hne. rewrite Hrcv. apply Nat.eqb_neq in Hne. rewrite Hne. apply app_nil_r. }
  assert (Hother_log : forall g, g <> sc_gid x -> log' g = log g).
  { intros g Hne. unfold log'. apply Nat.eqb_neq in Hne. rewrite Hne. reflexivity. }
  assert (Hnotclient : forall c, (forall g, (g < w_nextg w)%nat -> beta g <> c) -> c <> sc_client x).
  { intros c Hc E. apply (Hc (sc_gid x) Hglt). congruence. }
  constructor; rewrite ?Hse, ?Ebl, ?Eng; auto.
  - (* si_bound *) exact (bound_update beta w w' fd x y Hb HL (conj Eg Ecl) Ec).
  - (* si_rb *) intros fd0 x0 H0. rewrite Ec in H0. apply alookup_update_cases in H0.
    destruct H0 as [(-> & -> & _)|(_ & H0)]; [exact Hrby|eauto].
  - (* si_intact *) intros fd0 x0 H0. rewrite Ec in H0. apply alookup_update_cases in H0.
    destruct H0 as [(-> & -> & _)|(Hne & H0)].
    + unfold intact. rewrite Ecl, Eg. destruct (Hfl (sc_client x)) as [F1 F2]. rewrite F1, F2.
      intros C1. unfold log'. rewrite Hrcv, !Nat.eqb_refl.
      destruct (Hint _ _ HL C1) as [Hex Hdead]. destruct (Hkey C1 Hdead) as [K1 K2]. split; [|exact K2].
      intros Hy. destruct (K1 Hy) as [Sx K]. rewrite ser_app, <- (Hex Sx), <- !app_assoc, K. reflexivity.
    + assert (Hc : sc_client x0 <> sc_client x).
      { intros E. apply Hne. eapply si_client_inj; eauto. }
      assert (Hg : sc_gid x0 <> sc_gid x).
      { intros E. apply Hne. eapply inv_gid_inj; eauto. }
      exact (intact_ext w w' _ _ log log' x0 Hfl (Hother_client _ Hc) (Hother_log _ Hg) (Hint _ _ H0)).
  - (* si_pref *) intros g Hg. destruct (Nat.eq_dec g (sc_gid x)) as [->|Hne].
    + (* what is sent was at the front of what the log still owed the client *)
      assert (Howed : exists rest, g_rcv G (sc_client x) ++ sent ++ rest = ser (log (sc_gid x))).
      { destruct Hd as [->|(C1 & C2 & rest & Hrest)]; [rewrite <- Hbx; auto|].
        exists rest. rewrite <- Hrest. apply (Hint _ _ HL C1), C2. }
      destruct Howed as [rest Hrest]. exists (rest ++ ser ext).
      unfold log'. rewrite Hbx, Hrcv, !Nat.eqb_refl, ser_app, <- Hrest, !app_assoc. reflexivity.
    + assert (Hc : beta g <> sc_client x).
      { intros E. apply Hne. apply Hbinj; auto. congruence. }
      rewrite (Hother_client _ Hc), (Hother_log _ Hne). auto.
  - (* si_unseen *) intros c Hc. rewrite Hother_client; [auto|]. intros E. apply Hc. rewrite E, <- Hbx. auto.
  - (* si_bl *) intros c Hc. destruct (Hbl c Hc) as (A1 & A2 & A3). rewrite Hother_client; auto.
  - (* si_other *) intros c Hc. rewrite Hother_client; auto.
  - (* si_log_new *) intros g Hg. rewrite Hother_log by lia. auto.
  - (* si_gens *) intros g. unfold log'. destruct (Nat.eqb g (sc_gid x)); [apply gens_ok_app; auto|auto].
Qed.

(* The same for a step of the server's own on the entry, as handle_conn_shape describes it: the client's
   record becomes [cl'], whose receive queue has grown by [sent]; the log grows by replies the server
   generated; what is yielded becomes tokens. *)
Lemma io_step_SI w toks G beta log fd x y cl' sent gen ys :
  let cl := client_of w (sc_client x) in
  let w' := set_client (set_conn w fd y) (sc_client x) cl' in
  SIg (w, toks, G) beta log -> alookup fd (w_conns w) = Some x ->
  same_peer x y -> same_flags cl cl' -> k_rx cl' = k_rx cl ++ sent ->
  c_rbuf (sc_conn y) <> Some [] -> Forall server_generated gen ->
  (sent = [] \/ (k_can_receive cl = true /\ sc_st x <> SClosed /\ exists rest, unsent (sc_conn x) = sent ++ rest)) ->
  (k_can_receive cl = true -> (sc_st x = SClosed -> k_hup cl = true) ->
     (sc_st y <> SClosed -> sc_st x <> SClosed /\
                            unsent (sc_conn x) ++ flat_map serialize gen = sent ++ unsent (sc_conn y)) /\
     (sc_st y = SClosed -> k_hup cl = true)) ->
  Inv w' (ytoks ys ++ toks) ->
  exists log', SIg (w', ytoks ys ++ toks, gpoll G w w' ys) beta log'.
Proof.
  intros cl w' S HL Hp (F1 & F2 & F3 & _) Erx Hrby Hgen Hd Hkey HI'.
  pose proof S as [_ _ _ _ _ _ _ _ _ _ _ _ _ Happs Hcnt].
  eexists. apply (conn_step_SI w toks G beta log w' _ _ fd x y sent (map IGen gen) S HL); auto.
  - exact (flags_same_client (set_conn w fd y) w' _ cl' eq_refl F1 F2 F3).
  - apply gens_ok_gens, Hgen.
  - rewrite ser_gens. exact Hkey.
  - intros c. cbn [gpoll g_rcv]. f_equal. apply delta_spec. unfold w'.
    rewrite (rx_after_conn w fd y (sc_client x) cl' sent c Erx), Nat.eqb_sym.
    destruct (alookup (sc_client x) (w_clients w)) eqn:L; [reflexivity|].
    (* a client the kernel does not know cannot receive *)
    destruct Hd as [->|(C1 & _)]; [reflexivity|]. unfold cl, client_of in C1. rewrite L in C1. discriminate C1.
  - intros g. cbn [gpoll g_sup]. destruct (Nat.eqb g (sc_gid x)); [rewrite apps_app, apps_gens, app_nil_r|]; apply Happs.
  - intros g. cbn [gpoll g_sup g_yld]. rewrite count_g_app, <- (Hcnt g). lia.
Qed.

Lemma write_step_SI w toks G beta log fd x y s :
  let cl := client_of w (sc_client x) in
  let w' := set_client (set_conn w fd y) (sc_client x)
              (mkCl (k_open cl) (k_shut_wr cl) (k_shut_rd cl) (k_tosrv cl) (k_rx cl ++ s) (k_place cl)) in
  SIg (w, toks, G) beta log -> alookup fd (w_conns w) = Some x ->
  same_peer x y -> drained (k_can_receive cl) x y s -> Inv w' toks ->
  exists log', SIg (w', toks, gpoll G w w' []) beta log'.
Proof.
  intros cl w' S HL Hp (Hrby & Hsame & Hnone & Hopen) HI'.
  assert (D : sc_st x = AwaitOut \/ sc_st x <> AwaitOut) by (destruct (sc_st x); auto; right; discriminate).
  apply (io_step_SI w toks G beta log fd x y _ s [] [] S HL Hp); auto; [repeat split| |].
  - destruct (k_can_receive cl) eqn:CR; [|left; auto]. destruct D as [S0|S0]; [right|left; apply (Hsame S0)].
    destruct (Hopen eq_refl S0) as [_ Hu]. split; [exact CR|]. split; [congruence|eauto].
  - intros C1 Hdead. cbn [flat_map]. rewrite app_nil_r. destruct D as [S0|S0].
    + destruct (Hopen C1 S0) as [Hy Hu]. split; [intros _; split; [congruence|exact Hu]|intros E; destruct (Hy E)].
    + destruct (Hsame S0) as (Es & Eu & ->). rewrite Es, Eu. split; [auto|exact Hdead].
Qed.

(* Truthful readiness (K4): a hang-up is reported only when the client has hung up; input is reported only when there is input and no hang-up (the server looks at the hang-up bit first; end of stream comes with the hang-up bit) *)
Definition evt_true (w : world) (e : event) : Prop :=
  match e with
  | EvIn fd _ => forall x, alookup fd (w_conns w) = Some x ->
                  k_hup (client_of w (sc_client x)) = false /\ k_tosrv (client_of w (sc_client x)) <> []
  | EvHup fd => forall x, alookup fd (w_conns w) = Some x -> k_hup (client_of w (sc_client x)) = true
  | EvOut _ _ | EvListener _ | EvKill => True
  end.

(* the oldest waiting client [c] has no instance and has received nothing *)
Lemma waiting_client w toks G beta log c rest :
  SIg (w, toks, G) beta log -> w_backlog w = c :: rest ->
  In c (g_seen G) /\ g_rcv G c = [] /\ (forall g, (g < w_nextg w)%nat -> beta g <> c) /\
  (forall fd x, alookup fd (w_conns w) = Some x -> sc_client x <> c) /\
  NoDup rest /\ forall c2, In c2 rest -> In c2 (w_backlog w) /\ c2 <> c.
Proof.
  intros S Bk. pose proof (si_bl_nodup S) as Hnd. rewrite Bk in *.
  destruct (si_bl S c) as (A1 & A2 & A3); [rewrite Bk; left; reflexivity|].
  inversion Hnd; subst. repeat (split; [assumption|]). split; [|split; [assumption|]].
  - intros fd x H. rewrite <- (si_bound S _ _ H). apply A3. eapply inv_gid_lt; [apply (si_inv S)|eauto].
  - intros c2 Hc2. split; [right; exact Hc2|]. intros ->. auto.
Qed.

(* refused: only the receive queue of [c] changes, by the best-effort 503 *)
Lemma refuse_SI w toks G beta log c rest :
  let w' := refused_world w c (client_of w c) rest in
  SIg (w, toks, G) beta log -> w_backlog w = c :: rest -> Inv w' toks -> SIg (w', toks, gpoll G w w' []) beta log.
Proof.
  intros w' S Bk HI'.
  destruct (waiting_client _ _ _ _ _ c rest S Bk) as (Cseen & Crcv & Cnot & Cconn & Hndrest & Hrest).
  pose proof S as [HI Hb Hrb Hint Hpref Hbinj Hseen Hunseen Hnd Hbl Hoth Hnew Hgens Happs Hcnt].
  assert (Hfl : flags_same w w') by (eapply flags_same_client; reflexivity).
  set (d := if k_can_receive (client_of w c) then SERVER_FULL_ERROR_MESSAGE else []).
  assert (Hdel : forall c0, delta w w' c0 =
            if Nat.eqb c c0 then match alookup c (w_clients w) with Some _ => d | None => [] end else []).
  { intros c0. apply delta_spec, (rx_after w w' c _ d c0 eq_refl). cbn [k_rx]. unfold d.
    destruct (k_can_receive (client_of w c)); [reflexivity|symmetry; apply app_nil_r]. }
  assert (Hother : forall c0, c0 <> c -> g_rcv G c0 ++ delta w w' c0 = g_rcv G c0).
  { intros c0 Hne. rewrite Hdel. destruct (Nat.eqb_spec c c0); [congruence|apply app_nil_r]. }
  constructor; cbn [w' refused_world w_conns w_backlog w_nextg gpoll g_rcv g_sup g_yld g_seen]; auto.
  - (* si_intact *) intros fd0 x0 H0. apply (intact_ext w _ (g_rcv G) _ log log x0 Hfl); eauto.
  - (* si_pref *) intros g Hg. rewrite Hother by auto. auto.
  - (* si_unseen *) intros c0 Hc0. rewrite Hother; [auto|]. intros ->. auto.
  - (* si_bl *) intros c2 H2. destruct (Hrest c2 H2) as [B1 B2]. destruct (Hbl c2 B1) as (A1 & A2 & A3). rewrite Hother; auto.
  - (* si_other *) intros c0 Hc0. destruct (Nat.eq_dec c0 c) as [->|Hne]; [|rewrite Hother by exact Hne; auto].
    rewrite Hdel, Nat.eqb_refl, Crcv. unfold d.
    destruct (alookup c _); [destruct (k_can_receive (client_of w c))|]; auto.
  - (* si_count *) intros g. rewrite Nat.add_0_r. apply Hcnt.
Qed.

(* accepted: [c] becomes the client of the next instance, whose log is still empty *)
Lemma accept_SI w toks G beta log c rest nf :
  let w' := accepted_world w c (client_of w c) rest nf in
  SIg (w, toks, G) beta log -> w_backlog w = c :: rest -> Inv w' toks ->
  SIg (w', toks, G) (born beta (w_nextg w) c) log.
Proof.
  intros w' HS Bk HI'.
  destruct (waiting_client _ _ _ _ _ c rest HS Bk) as (Cseen & Crcv & Cnot & Cconn & Hndrest & Hrest).
  pose proof HS as [HI Hb Hrb Hint Hpref Hbinj Hseen Hunseen Hnd Hbl Hoth Hnew Hgens Happs Hcnt].
  assert (Hfl : flags_same w w') by (eapply flags_same_client; reflexivity).
  set (g0 := w_nextg w) in *.
  assert (Hborn : forall g, (g < S g0)%nat -> (g = g0 /\ born beta g0 c g = c) \/ ((g < g0)%nat /\ born beta g0 c g = beta g)).
  { intros g Hg. unfold born. destruct (Nat.eqb_spec g g0); [left; auto|right; split; [lia|reflexivity]]. }
  (* the new entry has nothing buffered, and its client nothing received from a log that is still empty *)
  assert (Hentry : forall fd0 x1, alookup fd0 (w_conns w') = Some x1 ->
            c_rbuf (sc_conn x1) <> Some [] /\ intact w (g_rcv G) log x1).
  { intros fd0 x1 H0. cbn [w' accepted_world w_conns] in H0. rewrite alookup_app_end in H0.
    destruct (alookup fd0 (w_conns w)) eqn:H1; [injection H0 as <-; eauto|].
    destruct (Nat.eqb nf fd0); [injection H0 as <-|discriminate]. split; [discriminate|].
    intros _. cbn [sc_gid sc_client sc_conn sc_st].
    split; [intros _; rewrite Crcv, (Hnew (w_nextg w) (le_n _)); reflexivity|discriminate]. }
  constructor; cbn [w' accepted_world w_backlog w_nextg]; auto.
  - (* si_bound *) eapply bound_accept; eauto.
  - (* si_rb *) intros fd0 x1 H0. apply (Hentry _ _ H0).
  - (* si_intact *) intros fd0 x1 H0.
    apply (intact_ext w _ (g_rcv G) (g_rcv G) log log x1 Hfl eq_refl eq_refl), (Hentry _ _ H0).
  - (* si_pref *) intros g Hg. destruct (Hborn g Hg) as [[-> ->]|[Hlt ->]]; [|auto].
    rewrite Crcv, (Hnew g0 (le_n _)). exists []. reflexivity.
  - (* si_binj *) intros g g' Hg Hg'. destruct (Hborn g Hg) as [[-> ->]|[Hlt ->]]; destruct (Hborn g' Hg') as [[-> ->]|[Hlt' ->]]; auto.
    + intros Heq. destruct (Cnot g' Hlt'). auto.
    + intros Heq. destruct (Cnot g Hlt). auto.
  - (* si_seen *) intros g Hg. destruct (Hborn g Hg) as [[-> ->]|[Hlt ->]]; auto.
  - (* si_bl *) intros c2 H2. destruct (Hrest c2 H2) as [B1 B2]. destruct (Hbl c2 B1) as (A1 & A2 & A3).
    split; [exact A1|]. split; [exact A2|]. intros g Hg. destruct (Hborn g Hg) as [[-> ->]|[Hlt ->]]; auto.
  - (* si_other *) intros c0 Hc0. apply Hoth. intros g Hg. rewrite <- (born_older beta g0 c g Hg). apply Hc0. lia.
  - (* si_log_new *) intros g Hg. apply Hnew. lia.
Qed.

Theorem event_stream w toks G beta log e w' ys :
  SIg (w, toks, G) beta log -> evt_ok w e -> evt_true w e ->
  handle_event w e = inl (w', ys) ->
  exists beta' log', SIg (w', ytoks ys ++ toks, gpoll G w w' ys) beta' log'.
Proof.
  intros S Hok Htrue H. pose proof (si_inv S) as HI.
  destruct (handle_inv BUF BUF_min BUF_u32 w toks e w' ys HI Hok H) as [HI' _].
  destruct e as [fd|fd kk|fd kk|nf|]; [| | | |discriminate H].
  - (* hang-up: the entry is closed with nothing pending; the report is truthful *)
    destruct Hok as (x & HL). cbn [Server.handle_event] in H. rewrite HL in H. injection H as <- <-.
    rewrite <- (set_client_same (set_conn w fd _) (sc_client x)) in *.
    exists beta. apply (io_step_SI w toks G beta log fd x _ _ [] [] [] S HL); auto; try (repeat split; fail).
    + symmetry. apply app_nil_r.
    + discriminate.
    + intros _ _. split; [intros Hy; destruct Hy; reflexivity|intros _; exact (Htrue x HL)].
  - (* readable: the replies the server generates go to the end of the instance's log *)
    destruct (read_event BUF BUF_min BUF_u32 w toks fd kk w' ys HI Hok H)
      as (x & y & cl' & gen & HL & -> & Hp & Hf & Erx & Hrq & Hrby & Hgen & Hin).
    exists beta. apply (io_step_SI w toks G beta log fd x y cl' [] gen ys S HL Hp Hf); auto.
    + rewrite app_nil_r. exact Erx.
    + rewrite Hrby. exact (si_rb S _ _ HL).
    + intros _ Hdead. destruct (Htrue x HL) as [Hnohup Hdata].
      assert (Sx : sc_st x <> SClosed) by (intros Sx; rewrite (Hdead Sx) in Hnohup; discriminate).
      split; [|intros Sy; destruct (proj1 (Hin Hdata) Sx Sy)].
      intros _. split; [exact Sx|]. symmetry. exact (unsent_grow _ _ gen Hrq Hrby).
  - (* writable: what the stream accepts moves from the unsent output to the client *)
    destruct Hok as (x & HL & Hout). pose proof (inv_cc _ _ _ HI _ _ HL) as [Hst _].
    destruct (handle_out BUF w fd kk x HL Hst Hout) as (y & sent & rq & rb & E & _ & Eg & Ec & _ & _ & D).
    rewrite H in E. injection E as -> ->.
    exists beta. apply (write_step_SI w toks G beta log fd x y sent S HL (conj Eg Ec)); [|exact HI'].
    apply D, (si_rb S _ _ HL).
  - rewrite handle_listen_eq in H. injection H as <- <-.
    destruct (w_backlog w) as [|c rest] eqn:Bk; [|destruct (Nat.eqb _ _)].
    + exists beta, log. exact (SI_geq _ _ _ _ _ _ (gpoll_quiet G w w (fun _ => eq_refl)) S).
    + exists beta, log. exact (refuse_SI w toks G beta log c rest S Bk HI').
    + exists (born beta (w_nextg w) c), log.
      refine (SI_geq _ _ _ _ _ _ (gpoll_quiet G w _ _) (accept_SI w toks G beta log c rest nf S Bk HI')).
      intros c0. rewrite (client_after w (accepted_world w c (client_of w c) rest nf) c _ c0 eq_refl).
      destruct (Nat.eqb_spec c c0) as [<-|]; [|reflexivity]. unfold client_of. destruct (alookup c (w_clients w)); reflexivity.
Qed.

Lemma other_client_same w toks G beta log e w' ys fd x :
  SIg (w, toks, G) beta log -> handle_event w e = inl (w', ys) ->
  alookup fd (w_conns w) = Some x -> ev_key e <> KConn fd ->
  alookup fd (w_conns w') = Some x /\ client_of w' (sc_client x) = client_of w (sc_client x).
Proof.
  intros S H HL Hk. apply (other_key_frame BUF w e w' ys fd x H HL Hk).
  - intros fd0 x0 HL0 E. exact (si_client_inj w toks G beta log fd0 fd x0 x S HL0 HL E).
  - intros c rest Bk E. destruct (waiting_client _ _ _ _ _ c rest S Bk) as (_ & _ & _ & Cconn & _).
    exact (Cconn _ _ HL (eq_sym E)).
Qed.

Lemma evt_true_frame w toks G beta log e w' ys e' :
  SIg (w, toks, G) beta log ->
  handle_event w e = inl (w', ys) -> evt_ok w e' -> evt_true w e' -> ev_key e' <> ev_key e -> evt_true w' e'.
Proof.
  intros S H Hev' Ht Hk.
  (* the entry [e'] speaks of, and its client, are as they were *)
  assert (Hsame : forall fd' x x', ev_key e' = KConn fd' -> alookup fd' (w_conns w) = Some x ->
            alookup fd' (w_conns w') = Some x' -> x' = x /\ client_of w' (sc_client x) = client_of w (sc_client x)).
  { intros fd' x x' K' HL HL'.
    destruct (other_client_same w toks G beta log e w' ys fd' x S H HL) as [HL1 C1]; [congruence|].
    rewrite HL1 in HL'. injection HL' as <-. auto. }
  destruct e' as [fd'|fd' kk'|fd' kk'|nf'|]; cbn [evt_true evt_ok] in *; auto.
  - destruct Hev' as (x & HL). intros x' HL'. destruct (Hsame fd' x x' eq_refl HL HL') as [-> ->]. auto.
  - destruct Hev' as (x & HL & _). intros x' HL'. destruct (Hsame fd' x x' eq_refl HL HL') as [-> ->]. auto.
Qed.

Theorem batch_stream es w toks G beta log w' ys :
  SIg (w, toks, G) beta log ->
  Forall (evt_ok w) es -> Forall (evt_true w) es -> NoDup (map ev_key es) ->
  handle_all w es [] = inl (w', ys) ->
  exists beta' log', SIg (w', ytoks ys ++ toks, gpoll G w w' ys) beta' log'.
Proof.
  intros S Hok Htr Hnd H.
  apply (batch_inv_induction BUF BUF_min BUF_u32 evt_true (fun w1 ys1 =>
           grows w w1 /\ exists b l, SIg (w1, ytoks ys1 ++ toks, gpoll G w w1 ys1) b l))
    with (es := es) (w := w) (toks := toks) (acc := []); auto.
  - intros w1 t1 ys0 e w2 ys1 _ (Hg0 & b0 & l0 & S0) He Ht Hh.
    destruct (event_stream w1 _ _ b0 l0 e w2 ys1 S0 He Ht Hh) as (b1 & l1 & S1).
    pose proof (event_grows _ _ _ _ Hh) as Hg1. split.
    + split; [exact (proj1 (grows_trans _ _ _ Hg0 Hg1))|]. exists b1, l1.
      (* the order of the tokens is immaterial *)
      refine (SI_ext w2 _ _ _ _ b1 l1 _ _ (gpoll_trans G w w1 w2 ys0 ys1 Hg0 Hg1) S1).
      * intros t0. rewrite ytoks_app, !in_app_iff. tauto.
      * intros g. rewrite ytoks_app, !count_g_app. lia.
    + intros e' He' Ht' Hk. exact (evt_true_frame w1 _ _ b0 l0 e w2 ys1 e' S0 Hh He' Ht' Hk).
  - apply (si_inv S).
  - split; [exact (grows_refl w)|].
    exists beta, log. exact (SI_geq _ _ _ _ _ _ (gpoll_quiet G w w (fun _ => eq_refl)) S).
Qed.

Lemma sweep_stream w toks G beta log : SIg (w, toks, G) beta log -> SIg (sweep w, toks, G) beta log.
Proof.
  intros S. pose proof S as [HI Hb Hrb Hint Hpref Hbinj Hseen Hunseen Hnd Hbl Hoth Hnew Hgens Happs Hcnt].
  pose proof (alookup_sweep BUF w toks) as Hsub.
  constructor; eauto using sweep_inv, sweep_binding.
  intros fd x H. apply (intact_ext w _ (g_rcv G) (g_rcv G) log log x (sweep_flags w) eq_refl eq_refl). eauto.
Qed.

Theorem poll_stream w toks G beta log es w' ys :
  SIg (w, toks, G) beta log ->
  Forall (evt_ok w) es -> Forall (evt_true w) es -> NoDup (map ev_key es) ->
  poll_with w es = PYield w' ys ->
  exists beta' log', SIg (w', ytoks ys ++ toks, gpoll G w w' ys) beta' log'.
Proof.
  intros S Hok Htr Hnd Hp. destruct (poll_with_yield BUF _ _ _ _ Hp) as (_ & w1 & Hh & ->).
  destruct (batch_stream es w toks G beta log w1 ys S Hok Htr Hnd Hh) as (beta' & log' & S1).
  exists beta', log'. refine (SI_geq _ _ _ _ _ _ _ (sweep_stream _ _ _ _ _ S1)).
  (* the sweep delivers nothing *)
  split; [|repeat split]. intros c. cbn [gpoll g_rcv]. unfold delta. rewrite sweep_delivery. reflexivity.
Qed.

Theorem respond_stream w t1 t2 fd g r w' G beta log :
  SIg (w, t1 ++ (fd, g) :: t2, G) beta log -> respond w fd r = inl w' ->
  exists log', SIg (w', t1 ++ t2, gresp G g r) beta log'.
Proof.
  intros S Hr.
  pose proof S as [HI _ Hrb _ _ _ _ _ _ _ _ _ _ Happs Hcnt].
  destruct (respond_ok BUF BUF_min BUF_u32 w t1 t2 fd g r HI) as (w1 & x & Hr' & HI' & HL & Hg & _).
  rewrite Hr in Hr'. injection Hr' as <-. apply respond_inl in Hr. rewrite HL in Hr. subst w'.
  (* a response for a closed connection is dropped *)
  set (ext := match sc_st x with SClosed => [] | _ => [IApp r] end).
  assert (Hser : ser ext = match sc_st x with SClosed => [] | _ => serialize r end)
    by (unfold ext; destruct (sc_st x); cbn; rewrite ?app_nil_r; reflexivity).
  assert (Hclosed : sc_st (answered x r) = SClosed <-> sc_st x = SClosed)
    by (unfold answered; cbn; destruct (sc_st x); split; congruence).
  eexists. apply (conn_step_SI w _ G beta log _ _ _ fd x (answered x r) [] ext S HL); try reflexivity; auto.
  - intros c; split; reflexivity.
  - split; reflexivity.
  - unfold answered. cbn [sc_conn]. destruct (sc_st x); cbn [enqueue_response set_write c_rbuf]; eauto.
  - unfold ext. destruct (sc_st x); repeat constructor.
  - intros _ Hdead. split.
    + intros Hy. split; [tauto|]. rewrite unsent_answered, Hser. reflexivity.
    + intros Hy. apply Hdead. tauto.
  - intros c. destruct (Nat.eqb _ _); symmetry; apply app_nil_r.
  - intros g0. cbn [gresp g_sup]. rewrite Hg. destruct (Nat.eqb_spec g0 g) as [->|]; [|apply Happs].
    rewrite apps_app. unfold ext. destruct (sc_st x); cbn [apps flat_map app]; rewrite ?app_nil_r;
      (apply subseq_snoc_both || apply subseq_snoc_skip); apply Happs.
  - intros g0. cbn [gresp g_sup g_yld]. specialize (Hcnt g0). rewrite count_g_remove in Hcnt. rewrite (Nat.eqb_sym g0 g).
    destruct (Nat.eqb_spec g g0) as [->|]; [rewrite app_length; cbn [length]|]; lia.
Qed.

Lemma nodup_app {A} (a b : list A) : NoDup a -> NoDup b -> (forall v, In v a -> ~ In v b) -> NoDup (a ++ b).
Proof.
  induction a as [|h t IH]; cbn; intros Ha Hb0 Hd; [exact Hb0|].
  inversion Ha; subst. constructor.
  - intros Hin. apply in_app_or in Hin. destruct Hin as [Hin|Hin]; [auto|]. apply (Hd h); auto.
  - apply IH; auto.
Qed.

(* what clients and the environment may do between two server calls: anything that leaves the server's table
   alone; new clients (never seen before) may ask to connect; a client that has hung up stays hung up, a
   client that cannot receive any more never can again *)
Definition env_ok (w w' : world) (seen new : list nat) : Prop :=
  w_conns w' = w_conns w /\ w_nextg w' = w_nextg w /\ w_backlog w' = w_backlog w ++ new /\
  NoDup new /\ (forall c, In c new -> ~ In c seen) /\
  forall c, In c seen ->
    (k_hup (client_of w c) = true -> k_hup (client_of w' c) = true) /\
    (k_can_receive (client_of w c) = false -> k_can_receive (client_of w' c) = false).

Theorem env_stream w toks G beta log w' new :
  SIg (w, toks, G) beta log -> env_ok w w' (g_seen G) new -> SIg (w', toks, genv G new) beta log.
Proof.
  intros S (Ec & Eng & Ebl & Hndn & Hfresh & Hmono).
  pose proof S as [HI Hb Hrb Hint Hpref Hbinj Hseen Hunseen Hnd Hbl Hoth Hnew Hgens Happs Hcnt].
  constructor; cbn [genv g_rcv g_sup g_yld g_seen]; rewrite ?Ec, ?Eng, ?Ebl; auto.
  - (* si_inv *) eapply (Inv_env BUF); eauto.
  - (* si_bound *) intros fd x HL. rewrite Ec in HL. eauto.
  - (* si_intact *) intros fd x HL. unfold intact. intros C1.
    assert (Hin : In (sc_client x) (g_seen G)).
    { rewrite <- (Hb _ _ HL). apply Hseen. eapply inv_gid_lt; eauto. }
    destruct (Hmono _ Hin) as [M1 M2].
    assert (C0 : k_can_receive (client_of w (sc_client x)) = true).
    { destruct (k_can_receive (client_of w (sc_client x))); [reflexivity|]. rewrite M2 in C1 by reflexivity. discriminate. }
    destruct (Hint _ _ HL C0) as [Hex Hdead]. split; [exact Hex|]. intros Sx. apply M1. apply Hdead. exact Sx.
  - (* si_seen *) intros g Hg. apply in_or_app. left. auto.
  - (* si_unseen *) intros c Hc. apply Hunseen. intros Hin. apply Hc. apply in_or_app. left. exact Hin.
  - (* si_bl_nodup *) apply nodup_app; auto. intros c Hc Hin. apply (Hfresh c Hin). apply (Hbl c Hc).
  - (* si_bl *) intros c Hc. apply in_app_or in Hc. destruct Hc as [Hc|Hc].
    + destruct (Hbl c Hc) as (A1 & A2 & A3). split; [apply in_or_app; left; exact A1|auto].
    + split; [apply in_or_app; right; exact Hc|]. split; [apply Hunseen; auto|].
      intros g Hg E. apply (Hfresh c Hc). rewrite <- E. auto.
Qed.

Lemma flush_one_stream w toks G beta log fd x :
  SIg (w, toks, G) beta log -> alookup fd (w_conns w) = Some x ->
  exists log', SIg (flush_one w (fd, x), toks, gpoll G w (flush_one w (fd, x)) []) beta log'.
Proof.
  intros HS HL. pose proof (si_inv HS) as HI.
  pose proof (flush_one_inv BUF w toks fd x HI HL) as HI'.
  pose proof (st_ok_mid _ (proj1 (inv_cc _ _ _ HI _ _ HL))) as Hm.
  revert HI'. unfold flush_one. set (cl := client_of w (sc_client x)). set (fuel := S (S (length (c_rq (sc_conn x))))).
  destruct (flush_conn_spec fuel x (k_can_receive cl) [] Hm) as (y & s & -> & Hp & _ & _ & _ & _ & _ & D).
  destruct (D (si_rb HS _ _ HL)) as [D' _]. cbn [app].
  (* the entry that is stored has the connection and the state the loop left *)
  intros HI'. apply (write_step_SI w toks G beta log fd x _ s HS HL); [| |exact HI'];
    destruct (_ && _); exact Hp || exact D'.
Qed.

Theorem flush_stream w toks G beta log :
  SIg (w, toks, G) beta log -> exists log', SIg (flush w, toks, gpoll G w (flush w) []) beta log'.
Proof.
  intros S.
  refine (proj2 (flush_fold (fun _ w0 => grows w w0 /\ exists l0, SIg (w0, toks, gpoll G w w0 []) beta l0) w _ _ _)).
  - apply (inv_nodup _ _ _ (si_inv S)).
  - intros fd x l w0 (Hg0 & l0 & S0) HL0 _.
    destruct (flush_one_stream w0 toks _ beta l0 fd x S0 HL0) as (l1 & S1).
    pose proof (flush_one_grows w0 fd x) as Hg1.
    split; [exact (proj1 (grows_trans _ _ _ Hg0 Hg1))|]. exists l1.
    exact (SI_geq _ _ _ _ _ _ (gpoll_trans G w w0 _ [] [] Hg0 Hg1) S1).
  - split; [exact (grows_refl w)|]. exists log.
    exact (SI_geq _ _ _ _ _ _ (gpoll_quiet G w w (fun _ => eq_refl)) S).
Qed.

Inductive gstep : world * list tok * ghost -> world * list tok * ghost -> Prop :=
| GPoll w toks G es w' ys d G' :
    Forall (evt_ok w) es -> Forall (evt_true w) es -> NoDup (map ev_key es) -> ~ In KKill (map ev_key es) ->
    poll_with w es = PYield w' ys ->
    (forall c, k_rx (client_of w' c) = k_rx (client_of w c) ++ d c) ->      (* d c: what this poll delivered to c *)
    (forall c, g_rcv G' c = g_rcv G c ++ d c) ->
    (forall g, g_yld G' g = (g_yld G g + count_g g (ytoks ys))%nat) ->
    (forall g, g_sup G' g = g_sup G g) -> g_seen G' = g_seen G ->
    gstep (w, toks, G) (w', ytoks ys ++ toks, G')
| GRespond w t1 t2 fd g r w' G G' :
    respond w fd r = inl w' ->
    (forall g0, g_sup G' g0 = if Nat.eqb g0 g then g_sup G g ++ [r] else g_sup G g0) ->
    (forall c, g_rcv G' c = g_rcv G c) -> (forall g0, g_yld G' g0 = g_yld G g0) -> g_seen G' = g_seen G ->
    gstep (w, t1 ++ (fd, g) :: t2, G) (w', t1 ++ t2, G')
| GFlush w toks G d G' :
    (forall c, k_rx (client_of (flush w) c) = k_rx (client_of w c) ++ d c) ->
    (forall c, g_rcv G' c = g_rcv G c ++ d c) ->
    (forall g, g_sup G' g = g_sup G g) -> (forall g, g_yld G' g = g_yld G g) -> g_seen G' = g_seen G ->
    gstep (w, toks, G) (flush w, toks, G')
| GEnv w toks w' new G G' :
    env_ok w w' (g_seen G) new ->
    (forall c, g_rcv G' c = g_rcv G c) -> (forall g, g_sup G' g = g_sup G g) -> (forall g, g_yld G' g = g_yld G g) ->
    g_seen G' = g_seen G ++ new ->
    gstep (w, toks, G) (w', toks, G').

Inductive greach : world * list tok * ghost -> Prop :=
| GR0 : greach (world0, [], ghost0)
| GRS s s' : greach s -> gstep s s' -> greach s'.

Lemma SI_world0 : SIg (world0, [], ghost0) (fun _ => 0%nat) (fun _ => []).
Proof.
  (* there is no entry, no instance, no waiting client: only four fields say anything *)
  cbn. constructor; cbn; intros; try discriminate; try lia; auto.
  - (* si_inv *) apply (Inv_world0 BUF); assumption.
  - (* si_bl_nodup *) constructor.
  - (* si_gens *) constructor.
  - (* si_apps *) constructor.
Qed.

Theorem gstep_SI s s' beta log : SIg s beta log -> gstep s s' -> exists beta' log', SIg s' beta' log'.
Proof.
  intros S Hstep. revert S.
  (* the bookkeeping of a step is, pointwise, that of gpoll, gresp, genv: what a step is said to have delivered
     is the growth of the receive queues *)
  destruct Hstep as [w toks G es w' ys d G' Hok Htr Hnd Hnk Hp Hk Hr Hy Hs Hse
                    |w t1 t2 fd g r w' G G' Hresp Hs Hr Hy Hse
                    |w toks G d G' Hk Hr Hs Hy Hse
                    |w toks w' new G G' Henv Hr Hs Hy Hse]; intros S.
  - destruct (poll_stream w toks G beta log es w' ys S Hok Htr Hnd Hp) as (beta' & log' & S').
    exists beta', log'. refine (SI_geq _ _ (gpoll G w w' ys) G' _ _ (conj _ (conj Hs (conj Hy Hse))) S').
    intros c. rewrite Hr. cbn [gpoll g_rcv]. rewrite (delta_spec _ _ _ _ (Hk c)). reflexivity.
  - destruct (respond_stream w t1 t2 fd g r w' G beta log S Hresp) as (log' & S').
    exists beta, log'. exact (SI_geq _ _ (gresp G g r) G' _ _ (conj Hr (conj Hs (conj Hy Hse))) S').
  - destruct (flush_stream w toks G beta log S) as (log' & S').
    exists beta, log'. refine (SI_geq _ _ (gpoll G w (flush w) []) G' _ _ (conj _ (conj Hs (conj _ Hse))) S').
    + intros c. rewrite Hr. cbn [gpoll g_rcv]. rewrite (delta_spec _ _ _ _ (Hk c)). reflexivity.
    + intros g. rewrite Hy. symmetry. apply Nat.add_0_r.
  - exists beta, log. exact (SI_geq _ _ (genv G new) G' _ _ (conj Hr (conj Hs (conj Hy Hse))) (env_stream _ _ _ _ _ _ _ S Henv)).
Qed.

(* C07, the whole stream: the invariant holds at every point of every history *)
Theorem stream_invariant s : greach s -> exists beta log, SIg s beta log.
Proof.
  induction 1 as [|s s' Hr IH Hstep].
  - do 2 eexists. apply SI_world0.
  - destruct IH as (beta & log & S). eapply gstep_SI; eauto.
Qed.

Lemma bounded_dec (beta : nat -> nat) c n :
  (exists g, (g < n)%nat /\ beta g = c) \/ (forall g, (g < n)%nat -> beta g <> c).
Proof.
  induction n as [|n IH]; [right; intros g Hg; lia|].
  destruct IH as [(g & Hg & E)|Hno]; [left; exists g; split; [lia|exact E]|].
  destruct (Nat.eq_dec (beta n) c) as [E|Hne]; [left; exists n; split; [lia|exact E]|].
  right. intros g Hg. destruct (Nat.eq_dec g n) as [->|Hgn]; [exact Hne|apply Hno; lia].
Qed.

Definition stream_statement (w : world) (toks : list tok) (G : ghost) : Prop :=
  exists (beta : nat -> nat) (log : nat -> list item),
    (* one client per connection instance, for ever *)
    (forall g g', (g < w_nextg w)%nat -> (g' < w_nextg w)%nat -> beta g = beta g' -> g = g') /\
    (forall fd x, alookup fd (w_conns w) = Some x -> beta (sc_gid x) = sc_client x) /\
    (forall fd g, In (fd, g) toks -> exists x, alookup fd (w_conns w) = Some x /\ sc_gid x = g) /\
    (* every element of an instance's log is server-generated or was supplied by the application with a token
       of that instance; the latter, at most once each and in the order supplied *)
    (forall g, gens_ok (log g) /\ subseq (apps (log g)) (g_sup G g)) /\
    (* each yielded request is answered at most once *)
    (forall g, (length (g_sup G g) + count_g g toks = g_yld G g)%nat) /\
    (* what a client has received: nothing, its own 503 refusal, or a prefix of its own instance's log *)
    forall c, g_rcv G c = [] \/
              (g_rcv G c = SERVER_FULL_ERROR_MESSAGE /\ forall g, (g < w_nextg w)%nat -> beta g <> c) \/
              exists g tail, (g < w_nextg w)%nat /\ beta g = c /\ g_rcv G c ++ tail = ser (log g).

Lemma SI_statement w toks G beta log :
  SI w toks (g_rcv G) (g_sup G) (g_yld G) (g_seen G) beta log -> stream_statement w toks G.
Proof.
  intros S.
  pose proof S as [HI Hb Hrb Hint Hpref Hbinj Hseen Hunseen Hnd Hbl Hoth Hnew Hgens Happs Hcnt].
  exists beta, log. split; [exact Hbinj|]. split; [exact Hb|]. split; [apply (inv_tok _ _ _ HI)|].
  split; [intros g; split; auto|]. split; [exact Hcnt|].
  intros c. destruct (bounded_dec beta c (w_nextg w)) as [(g & Hg & E)|Hno].
  - right. right. destruct (Hpref g Hg) as [tail Ht]. exists g, tail. rewrite <- E. auto.
  - destruct (Hoth c Hno) as [H0|H1]; [left; exact H0|right; left; auto].
Qed.

Theorem stream_provenance w toks G : greach (w, toks, G) -> stream_statement w toks G.
Proof.
  intros R. destruct (stream_invariant _ R) as (beta & log & S). cbn [SIg] in S. eapply SI_statement; eauto.
Qed.

(* the executable poll (level-triggered readiness of the model kernel) is truthful *)
Lemma ready_events_true w toks : Inv w toks -> Forall (evt_true w) (ready_events w).
Proof.
  intros HI. apply Forall_forall. intros e Hin.
  apply In_ready_events in Hin. destruct Hin as [[-> _]|[(fd & x & Hp & Ce)|[-> _]]]; [exact I| |exact I].
  assert (HL : alookup fd (w_conns w) = Some x) by (apply alookup_in_nodup; [apply (inv_nodup _ _ _ HI)|exact Hp]).
  destruct (conn_event_cases w fd x e Ce) as [[-> Hh]|[(-> & _)|(-> & Hh & _ & Ts)]]; cbn [evt_true]; [|exact I|];
    intros x' HL'; rewrite HL in HL'; injection HL' as <-; auto.
Qed.

Lemma canonical_gstep w toks G beta log w' ys :
  SIg (w, toks, G) beta log -> w_killed w = false -> poll BUF w = PYield w' ys ->
  gstep (w, toks, G) (w', ytoks ys ++ toks, gpoll G w w' ys).
Proof.
  intros S Hk P. pose proof (si_inv S) as HI.
  destruct (ready_events_ok BUF BUF_min BUF_u32 w toks HI) as [A1 A2].
  apply GPoll with (es := ready_events w) (d := delta w w'); auto.
  - exact (ready_events_true w toks HI).
  - exact (no_kill_key w Hk).
  - exact (poll_grows _ _ _ _ P).
Qed.

Lemma respond_gstep w t1 t2 fd g r w' G :
  respond w fd r = inl w' -> gstep (w, t1 ++ (fd, g) :: t2, G) (w', t1 ++ t2, gresp G g r).
Proof. intros H. apply GRespond with (r := r); auto. Qed.

End Stream.
(* non-vacuity: a history in which a client connects, sends a request, the application answers it and the client
   receives exactly that response *)
Example stream_example :
  exists w toks G, greach 1024 (w, toks, G) /\
    g_rcv G 0%nat = serialize (response_new Http11 NoContent) /\
    g_sup G 0%nat = [response_new Http11 NoContent] /\ g_yld G 0%nat = 1%nat /\ toks = [].
Proof.
  assert (poll_step : forall w toks G w' ys, greach 1024 (w, toks, G) -> w_killed w = false ->
            poll 1024 w = PYield w' ys -> greach 1024 (w', ytoks ys ++ toks, gpoll G w w' ys)).
  { intros w toks G w' ys R K P. destruct (stream_invariant 1024 BUF1024_min BUF1024_u32 _ R) as (b & l & S).
    exact (GRS 1024 _ _ R (canonical_gstep 1024 BUF1024_min BUF1024_u32 w toks G b l w' ys S K P)). }
  assert (R1 : greach 1024 (wA, [], genv ghost0 [0%nat])).
  { eapply GRS; [apply GR0|]. apply GEnv with (new := [0%nat]); auto. unfold env_ok. cbn.
    split; [reflexivity|]. split; [reflexivity|]. split; [reflexivity|].
    split; [repeat constructor; intros []|]. split; [intros c0 _ []|intros c0 []]. }
  pose proof poll_wB as [rq PB].
  pose proof (poll_step _ _ _ _ _ R1 eq_refl poll_wA) as R2.
  pose proof (poll_step _ _ _ _ _ R2 (calm_nokill _ (proj1 wB_ok)) PB) as R3.
  (* the worlds after the response and after the poll that writes it out, evaluated once each *)
  pose (wD := match respond wC 1 (response_new Http11 NoContent) with inl w => w | inr _ => wC end).
  vm_compute in wD.
  assert (RD : respond wC 1 (response_new Http11 NoContent) = inl wD) by (vm_compute; reflexivity).
  pose proof (GRS 1024 _ _ R3 (respond_gstep 1024 wC [] [] 1 0 _ wD _ RD)) as R4.
  pose (wE := match poll 1024 wD with PYield w _ => w | _ => wD end).
  vm_compute in wE.
  assert (PE : poll 1024 wD = PYield wE []) by (vm_compute; reflexivity).
  pose proof (poll_step _ _ _ _ _ R4 eq_refl PE) as R5.
  do 3 eexists. split; [exact R5|]. vm_compute. auto.
Qed.
